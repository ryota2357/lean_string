(* C01 — every operation behaves exactly like std String on the same value. *)
From Coq Require Import Lia Arith ZArith List Bool.
From LS Require Import Base Utf8 Utf8Spec Utf8Facts Cmd Impl NumModel Num Exec Specs WF Spec Refine Main Skeleton.
From LSGen Require Import GenSrc.
Open Scope N_scope.

(* tie A: the generated integer tables / LUT satisfy the side conditions every theorem below assumes *)
Theorem C01_gen_ok : gen_ok.
Proof. split; [vm_compute; reflexivity|]. intros t. destruct t; vm_compute; reflexivity. Qed.

(* tie A: every hand-modelled function still makes the same significant calls in the same order as on the tree the model
   was written against (allocator, atomics, copies, assertions, the six core Repr functions; debug_assert!s and the
   verification hooks are ignored) *)
Theorem C01_source_skeleton : skeletons = expected_skeletons.
Proof. vm_compute. reflexivity. Qed.
(* and every function of lib.rs / traits.rs (the public API and the trait impls: thin wrappers over the modelled core)
   still calls the same names in the same order: the delegation structure the operations of Exec.v were read from *)
Theorem C01_source_wrappers : wrappers = expected_wrappers.
Proof. vm_compute. reflexivity. Qed.
(* and the pointer arithmetic: every memory-moving / sizing call of the hand-modelled functions (copy, copy_nonoverlapping,
   copy_from_slice, set_len, write, realloc, alloc, dealloc, with_*, amortized_growth, ptr.add, range indexing) has the same
   argument text, and the bindings those arguments mention the same right-hand sides, as when the model's offsets and
   lengths (Impl.v: write_at / move_at / set_len arguments) were read from them *)
Theorem C01_source_mem_sites : mem_sites = expected_mem_sites.
Proof. vm_compute. reflexivity. Qed.
(* and the control skeleton: every `if` / `else if` / `while` / `match` of the hand-modelled functions has the same condition
   or scrutinee, and every loop and early `return` is where it was (local names abstracted; debug_assert!s and the
   verification hooks ignored) — a new special case, threshold or early exit in a modelled function is not covered by the
   hand-written model *)
Theorem C01_source_branches : branches = expected_branches.
Proof. vm_compute. reflexivity. Qed.

(* one step: well-formedness is preserved, nothing undefined is reached, statics are untouched, other slots are
   untouched, and unless the step reports an allocation failure the texts and the returned value are Spec's *)
Theorem C01_step : forall w o w' out,
  WF w -> op_wf (statics (wmem w)) o -> exec w o = (w', out) -> exec_post w o w' out.
Proof. intros w o w' out. exact (exec_sound w o w' out C01_gen_ok). Qed.

(* all finite histories over an unbounded pool, all arguments, all allocator oracles *)
Theorem C01_histories : forall st orc ops,
  Forall Valid st -> Forall (op_wf st) ops ->
  let '(w, outs) := execs (world0 st orc) ops in
  WF w /\ statics (wmem w) = st /\ Forall (fun o => forall u, o <> UbOut u) outs
  /\ (forallb (fun o => negb (alloc_failure o)) outs = true -> (abs w, outs) = spec_execs st [] ops).
Proof. intros st orc ops. exact (execs_sound st orc ops C01_gen_ok). Qed.

(* len / is_empty / as_bytes read the abstract text, and every text is valid UTF-8, in every storage state *)
Theorem C01_read : forall w i r,
  WF w -> nth_error (pool w) i = Some (Some r) ->
  len (text_of (wmem w) r) = repr_len r /\ Valid (text_of (wmem w) r)
  /\ (repr_len r = 0 <-> text_of (wmem w) r = []) /\ repr_len r <= cap_of (wmem w) r.
Proof.
  intros w i r HW Hi. pose proof (wf_handle HW Hi) as Hr.
  split; [apply text_len; exact Hr|]. split; [apply text_valid; exact Hr|]. split.
  - rewrite <- (text_len _ _ Hr). split; [apply ListFacts.len_zero_nil|intros ->; reflexivity].
  - apply repr_len_le_cap. exact Hr.
Qed.

(* non-vacuity: a history through inline -> heap -> shared -> truncated-while-shared -> unique -> static -> inline *)
Example C01_example :
  let st := [[104;101;108;108;111;32;119;111;114;108;100;44;32;115;116;97;116;105;99;33]] in
  let ops := [OFromStr Plain [97;98;99]; OPushStr Plain 0%nat [100;101;102;103;104;105;106;107;108;109;110;111;112;113;114];
              OClone 0%nat; OTruncate Plain 1%nat 4; ODrop 0%nat; OPush Plain 1%nat 233; OFromStatic 0%nat;
              OTruncate Plain 2%nat 5; OPushStr Try 2%nat [33]; OPop Plain 2%nat; ORemove Plain 1%nat 0;
              OInsert Plain 1%nat 0 8364] in
  Forall (op_wf st) ops
  /\ snd (execs (world0 st (fun _ _ => false)) ops) = snd (spec_execs st [] ops)
  /\ abs (fst (execs (world0 st (fun _ _ => false)) ops)) = fst (spec_execs st [] ops)
  /\ abs (fst (execs (world0 st (fun _ _ => false)) ops))
     = [None; Some [226;130;172;98;99;100;195;169]; Some [104;101;108;108;111]].
Proof.
  cbv zeta. split.
  - repeat constructor; cbn [op_wf]; try (apply valid_ascii; repeat constructor; lia); try reflexivity.
    eexists; reflexivity.
  - vm_compute. repeat split; reflexivity.
Qed.

Print Assumptions C01_gen_ok.
Print Assumptions C01_source_skeleton.
Print Assumptions C01_source_wrappers.
Print Assumptions C01_source_mem_sites.
Print Assumptions C01_source_branches.
Print Assumptions C01_step.
Print Assumptions C01_histories.
Print Assumptions C01_read.
Print Assumptions C01_example.
