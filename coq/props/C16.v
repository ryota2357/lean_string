(* C16 — UTF-8 and UTF-16 decoding constructors agree with std on every input. *)
From Coq Require Import Lia Arith ZArith List Bool.
From LS Require Import Base Utf8 Utf8Spec Utf8Facts Lossy Cmd Impl Exec Specs3 WF Spec Refine Main Derived Decode.
From LSProps Require Import C01.
Open Scope N_scope.

(* the acceptance condition: the boolean automaton (Unicode table 3-7; compared with std::str::from_utf8 by the
   harness over the byte-class alphabet) accepts exactly the valid texts *)
Theorem C16_utf8_valid_iff : forall bs, utf8_valid bs = true <-> Valid bs.
Proof. exact utf8_valid_iff. Qed.

(* from_utf8: accepted input yields exactly that text (rejected input never reaches the crate: str::from_utf8 fails) *)
Theorem C16_from_utf8 : forall w m bs w' out,
  WF w -> utf8_valid bs = true -> exec w (OFromStr m bs) = (w', out) -> alloc_failure out = false ->
  out = OkUnit /\ abs w' = abs w ++ [Some bs].
Proof.
  intros w m bs w' out HW Hv He Haf. apply utf8_valid_iff in Hv.
  pose proof (C01_step w (OFromStr m bs) w' out HW Hv He) as [_ _ _ P4 _].
  specialize (P4 Haf). cbn [spec_exec] in P4. injection P4 as -> ->. auto.
Qed.

(* from_utf8_lossy, for EVERY chunk list utf8_chunks can produce (valid piece, invalid-piece flag) and any capacity
   guess n: never UB, and unless an allocation fails the text is exactly what the same loop builds in a String -
   including when the replacement characters outgrow with_capacity(len) *)
Theorem C16_from_utf8_lossy : forall st orc n cs,
  Forall Valid st -> Forall (fun c => Valid (fst c)) cs ->
  let '(w, outs) := execs (world0 st orc) (lossy_ops 0 n cs) in
  WF w /\ Forall (fun o => forall u, o <> UbOut u) outs
  /\ (forallb (fun o => negb (alloc_failure o)) outs = true -> abs w = [Some (lossy_text cs)]).
Proof. intros st orc n cs Hst Hv. apply (histories_text _ _ _ _ C01_gen_ok); [exact Hst | apply lossy_ops_wf; exact Hv | apply spec_lossy]. Qed.

(* from_utf16 (all units decodable) / from_utf16_lossy (lone surrogates already replaced by U+FFFD by the closure):
   one push per decoded char *)
Theorem C16_from_utf16 : forall st orc n cs,
  Forall Valid st -> scalars cs ->
  let '(w, outs) := execs (world0 st orc) (chars_ops 0 n cs) in
  WF w /\ Forall (fun o => forall u, o <> UbOut u) outs
  /\ (forallb (fun o => negb (alloc_failure o)) outs = true -> abs w = [Some (concat (map encode_cp cs))]).
Proof. intros st orc n cs Hst Hv. apply (histories_text _ _ _ _ C01_gen_ok); [exact Hst | apply chars_ops_wf; exact Hv | apply spec_chars]. Qed.

(* ---- the decoders themselves, on bytes / code units (Lossy.v; run against String::from_utf8_lossy / from_utf16 /
   from_utf16_lossy by the harness over the class alphabets) ---- *)
(* the lossy text of EVERY byte sequence is well-formed UTF-8, is the input itself when that is well formed, and is at
   most three times as long (so with_capacity(len) can be outgrown - covered by C16_from_utf8_lossy for any capacity) *)
Theorem C16_lossy_decoder : forall bs,
  Valid (lossy bs) /\ (Valid bs -> lossy bs = bs) /\ (length (lossy bs) <= 3 * length bs)%nat.
Proof. intros bs. split; [apply lossy_valid|]. split; [apply lossy_id|apply lossy_len]. Qed.
(* the chunks the crate's loop consumes: valid pieces only, and pushing them with one U+FFFD per ill-formed subpart
   spells exactly the lossy text *)
Theorem C16_chunks : forall bs,
  Forall (fun c => Valid (fst c)) (chunks_of bs) /\ lossy_text (chunks_of bs) = lossy bs.
Proof. intros bs. split; [apply chunks_of_valid|]. rewrite <- chunks_of_text. reflexivity. Qed.
(* hence from_utf8_lossy on bytes: whatever the capacity guess and the allocator, no UB, and unless an allocation fails
   the text is lossy bs *)
Theorem C16_from_utf8_lossy_bytes : forall st orc n bs,
  Forall Valid st ->
  let '(w, outs) := execs (world0 st orc) (lossy_ops 0 n (chunks_of bs)) in
  WF w /\ Forall (fun o => forall u, o <> UbOut u) outs
  /\ (forallb (fun o => negb (alloc_failure o)) outs = true -> abs w = [Some (lossy bs)]).
Proof.
  intros st orc n bs Hst. apply (histories_text _ _ _ _ C01_gen_ok); [exact Hst | apply lossy_ops_wf, chunks_of_valid |].
  rewrite spec_lossy. destruct (C16_chunks bs) as [_ ->]. reflexivity.
Qed.
(* UTF-16: every decoded value is a scalar (so every push is of a char), and encoding scalars then decoding gives them
   back with no error: from_utf16 accepts every well-formed input and yields its text *)
Theorem C16_utf16_decoder :
  (forall t, Forall (fun u => u < 65536) t ->
     Forall (fun o => match o with Some c => is_scalar c = true | None => True end) (utf16_decode t))
  /\ (forall cs, Forall (fun c => is_scalar c = true) cs -> utf16_decode (concat (map utf16_encode cs)) = map Some cs).
Proof. split; [exact utf16_decode_scalars|exact utf16_round_trip]. Qed.

(* non-vacuity: 14 bytes of input whose lossy text (3 replacement characters) outgrows the inline buffer *)
Example C16_example :
  let cs := [([97;98;99;100;101], true); ([102;103;104;105], true); ([106;107], true)] in
  let r := execs (world0 [] (fun _ _ => false)) (lossy_ops 0 14 cs) in
  abs (fst r) = [Some (lossy_text cs)] /\ len (lossy_text cs) = 20
  /\ utf8_valid [97; 237; 160; 128] = false /\ utf8_valid [240; 144; 128; 128] = true.
Proof. vm_compute. repeat split; reflexivity. Qed.

Print Assumptions C16_utf8_valid_iff.
Print Assumptions C16_lossy_decoder.
Print Assumptions C16_chunks.
Print Assumptions C16_from_utf8_lossy_bytes.
Print Assumptions C16_utf16_decoder.
Print Assumptions C16_from_utf8.
Print Assumptions C16_from_utf8_lossy.
Print Assumptions C16_from_utf16.
Print Assumptions C16_example.
