(* C19 — serde and arbitrary integrations are transparent string wrappers. *)
From Coq Require Import Lia Arith ZArith List Bool.
From LS Require Import Base Utf8 Utf8Spec Utf8Facts Cmd Impl Wp Exec Inv Specs Specs2 WF Spec Refine Main.
From LSProps Require Import C01.
Open Scope N_scope.

(* The integration code (src/features/serde.rs, arbitrary.rs) is four one-line wrappers: Serialize = as_str().serialize,
   visit_str / visit_borrowed_str / Arbitrary = LeanString::from(&str), visit_bytes / visit_borrowed_bytes =
   str::from_utf8 then LeanString::from or an error.  Modelled as: *)
Definition visit_bytes (v : list N) : option op := if utf8_valid v then Some (OFromStr Plain v) else None.

(* bytes are accepted exactly when they are valid UTF-8 ... *)
Theorem C19_visit_bytes_accepts_iff_valid : forall v, (exists o, visit_bytes v = Some o) <-> Valid v.
Proof.
  intros v. unfold visit_bytes. rewrite <- utf8_valid_iff. destruct (utf8_valid v); split; intros H; try discriminate; eauto.
  destruct H as (o & H). discriminate.
Qed.
(* ... and then (as for visit_str, visit_borrowed_str and Arbitrary) the value holds exactly that text *)
Theorem C19_from_str_is_transparent : forall w m v w' out,
  WF w -> Valid v -> exec w (OFromStr m v) = (w', out) -> alloc_failure out = false ->
  out = OkUnit /\ abs w' = abs w ++ [Some v].
Proof.
  intros w m v w' out HW Hv He Haf. pose proof (ep_refine _ _ _ _ (C01_step w (OFromStr m v) _ _ HW Hv He) Haf) as P.
  cbn [spec_exec] in P. injection P as -> ->. auto.
Qed.
(* Serialize hands serde exactly the abstract text *)
Theorem C19_serialize_sees_text : forall w i r,
  WF w -> nth_error (pool w) i = Some (Some r) ->
  exists m', run (as_bytes r) (wmem w) = (OVal (text_of (wmem w) r), m').
Proof.
  intros w i r HW Hi. pose proof (wf_handles _ HW _ _ Hi) as Hr.
  assert (H : wp (as_bytes r) (fun o m' => o = OVal (text_of (wmem w) r)) (wmem w)).
  { eapply as_bytes_wp; [exact Hr|apply read_only_refl|]. intros m' _. reflexivity. }
  unfold wp in H. destruct (run (as_bytes r) (wmem w)) as [o m']. subst o. exists m'. reflexivity.
Qed.

Example C19_example :
  visit_bytes [104;105;32;226;130;172] = Some (OFromStr Plain [104;105;32;226;130;172])
  /\ visit_bytes [104;105;32;226;130] = None /\ visit_bytes [237;160;128] = None.
Proof. vm_compute. repeat split; reflexivity. Qed.

Print Assumptions C19_visit_bytes_accepts_iff_valid.
Print Assumptions C19_from_str_is_transparent.
Print Assumptions C19_serialize_sees_text.
Print Assumptions C19_example.
