(* C15 — to_lean_string agrees with Display for everything else; floats round-trip. *)
From Coq Require Import Lia Arith ZArith List Bool.
From LS Require Import Base Utf8 Utf8Spec Utf8Facts Cmd Impl Exec Inv Specs Specs3 WF Spec Refine Main Derived.
From LSProps Require Import C01.
Open Scope N_scope.

(* bool, char, String (and &str): the new handle holds exactly the Display text *)
Theorem C15_bool : forall w b w' out,
  WF w -> exec w (OFromBool b) = (w', out) ->
  out = OkUnit /\ abs w' = abs w ++ [Some (if b then [116;114;117;101] else [102;97;108;115;101])].
Proof.
  intros w b w' out HW He.
  assert (Ho : out = OkUnit) by (cbn [exec] in He; unfold exec_ctor in He; cbn [run] in He; injection He as _ <-; reflexivity).
  subst out. pose proof (ep_refine _ _ _ _ (C01_step w (OFromBool b) _ _ HW I He) eq_refl) as P.
  cbn [spec_exec] in P. injection P as ->. auto.
Qed.
Theorem C15_char : forall w c w' out,
  WF w -> is_scalar c = true -> exec w (OFromChar c) = (w', out) ->
  out = OkUnit /\ abs w' = abs w ++ [Some (encode_cp c)].
Proof.
  intros w c w' out HW Hc He.
  assert (Ho : out = OkUnit) by (cbn [exec] in He; unfold exec_ctor in He; cbn [run] in He; injection He as _ <-; reflexivity).
  subst out. pose proof (ep_refine _ _ _ _ (C01_step w (OFromChar c) _ _ HW Hc He) eq_refl) as P.
  cbn [spec_exec] in P. injection P as ->. auto.
Qed.
Theorem C15_string : forall w m t w' out,
  WF w -> Valid t -> exec w (OFromStr m t) = (w', out) -> alloc_failure out = false ->
  out = OkUnit /\ abs w' = abs w ++ [Some t].
Proof.
  intros w m t w' out HW Hv He Haf. pose proof (ep_refine _ _ _ _ (C01_step w (OFromStr m t) _ _ HW Hv He) Haf) as P.
  cbn [spec_exec] in P. injection P as -> ->. auto.
Qed.
(* LeanString::to_lean_string is the shallow clone *)
Theorem C15_lean_string : forall w i w' out r,
  WF w -> exec w (OClone i) = (w', out) -> nth_error (pool w) i = Some (Some r) ->
  out = OkUnit /\ pool w' = pool w ++ [Some r].
Proof. intros w i w' out r HW He Hi. destruct (clone_is_shallow w i w' out r HW He Hi) as (H1 & H2 & _). auto. Qed.
(* any other Display type: pieces p1..pk and Ok give p1 ++ .. ++ pk; an Err after any prefix gives Err(Fmt) and no
   partial string; a panic gives nothing either *)
Theorem C15_display : forall w m ea pa ps w' out,
  WF w -> Forall Valid ps -> exec w (ODisplay m ea pa ps) = (w', out) -> alloc_failure out = false ->
  (abs w', out) = match first_stop ea pa 0 (length ps) with
                  | Some (_, o) => (abs w ++ [None], o)
                  | None => (abs w ++ [Some (concat ps)], OkUnit)
                  end.
Proof.
  intros w m ea pa ps w' out HW Hv He Haf.
  rewrite (ep_refine _ _ _ _ (C01_step w (ODisplay m ea pa ps) _ _ HW Hv He) Haf). cbn [spec_exec]. destruct (first_stop ea pa 0 (length ps)) as [[n o]|]; reflexivity.
Qed.
(* floats: the handle holds exactly the text ryu produced (C15_string with t = ryu's output, an oracle); that this
   text parses back to the same value is validated by the sweep over all 2^32 f32 patterns / sampled f64, not proved *)

Example C15_example :
  let ops := [ODisplay Try None None [[97;98];[99]]; ODisplay Try (Some 1%nat) None [[97;98];[99]]; OFromBool true; OFromChar 8364] in
  let r := execs (world0 [] (fun _ _ => false)) ops in
  abs (fst r) = [Some [97;98;99]; None; Some [116;114;117;101]; Some [226;130;172]] /\ snd r = [OkUnit; ErrFmt; OkUnit; OkUnit].
Proof. vm_compute. split; reflexivity. Qed.

Print Assumptions C15_bool.
Print Assumptions C15_char.
Print Assumptions C15_string.
Print Assumptions C15_lean_string.
Print Assumptions C15_display.
Print Assumptions C15_example.
