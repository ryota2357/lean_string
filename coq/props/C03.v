(* C03 — heap buffers: freed exactly once, after the last handle, never touched after. *)
From Coq Require Import Lia Arith ZArith List Bool.
From LS Require Import Base Utf8 Utf8Spec Cmd Impl Exec Inv Specs WF Spec Refine Main.
From LSProps Require Import C01.
Open Scope N_scope.

(* no operation of any history reaches an undefined state of the memory model: no access to a freed or unknown
   buffer, none out of bounds, no dealloc/realloc with a size other than the allocation's, no double free, no write
   through a static pointer, none of the unreachable_unchecked sites *)
Theorem C03_no_ub : forall st orc ops,
  Forall Valid st -> Forall (op_wf st) ops ->
  Forall (fun o => forall u, o <> UbOut u) (snd (execs (world0 st orc) ops)).
Proof.
  intros st orc ops Hst Hwf. pose proof (C01_histories st orc ops Hst Hwf) as H.
  destruct (execs (world0 st orc) ops) as [w outs]. destruct H as (_ & _ & H & _). exact H.
Qed.

(* in every reachable world: a live buffer's reference count equals the number of handles naming it (and is >= 1),
   its allocation size is header + capacity; a released buffer is named by nobody *)
Theorem C03_count : forall w b x,
  WF w -> nth_error (heap (wmem w)) b = Some x ->
  if live x then count x = refs (pool w) b /\ 1 <= count x /\ asize x = HDR + cap x /\ len (data x) = cap x
  else refs (pool w) b = 0.
Proof.
  intros w b x HW Hb. pose proof (wf_mi _ HW b) as H. rewrite Hb in H. destruct (live x).
  - destruct H as ((W1 & W2 & W3) & Hc & Ho). repeat split; auto. lia.
  - exact H.
Qed.

(* a handle never names a released buffer *)
Theorem C03_handles_live : forall w i b l,
  WF w -> nth_error (pool w) i = Some (Some (Heap b l)) ->
  exists x, nth_error (heap (wmem w)) b = Some x /\ live x = true /\ l <= cap x.
Proof.
  intros w i b l HW Hi. destruct (wf_handle HW Hi) as (x & Hb & Hl & Hlc & _). exists x. auto.
Qed.

(* when all handles are gone nothing remains allocated *)
Lemma refs_all_none p b : Forall (fun s => s = None) p -> refs p b = 0.
Proof. induction 1 as [|s p Hs _ IH]; cbn [refs]; [reflexivity|]. rewrite Hs, IH. reflexivity. Qed.
Theorem C03_no_leak : forall w,
  WF w -> Forall (fun s => s = None) (pool w) -> live_blocks (wmem w) = 0.
Proof.
  intros w HW Hnone. unfold live_blocks. destruct (filter live (heap (wmem w))) as [|x l] eqn:E; [reflexivity|exfalso].
  assert (Hx : In x (filter live (heap (wmem w)))) by (rewrite E; left; reflexivity).
  apply filter_In in Hx. destruct Hx as (Hin & Hl). apply In_nth_error in Hin. destruct Hin as (b & Hb).
  pose proof (C03_count w b x HW Hb) as Hc. rewrite Hl, (refs_all_none _ b Hnone) in Hc. lia.
Qed.

(* non-vacuity: clone, mutate (copy-out), drop everything: every block released exactly once *)
Example C03_example :
  let t20 := [97;98;99;100;101;102;103;104;105;106;107;108;109;110;111;112;113;114;115;116] in
  let ops := [OFromStr Plain t20; OClone 0%nat; OPush Plain 1%nat 33; OShrinkTo Plain 1%nat 0; ODrop 0%nat; ODrop 1%nat] in
  let w := fst (execs (world0 [] (fun _ _ => false)) ops) in
  live_blocks (wmem w) = 0 /\ length (heap (wmem w)) = 2%nat /\ snd (execs (world0 [] (fun _ _ => false)) ops) = repeat OkUnit 6.
Proof. vm_compute. repeat split; reflexivity. Qed.

Print Assumptions C03_no_ub.
Print Assumptions C03_count.
Print Assumptions C03_handles_live.
Print Assumptions C03_no_leak.
Print Assumptions C03_example.
Print Assumptions refs_all_none.
