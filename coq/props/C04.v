(* C04 — handles are independent and memory-safe across threads, under every schedule.   (partial: see below) *)
From Coq Require Import Lia Arith List Bool String.
From LSConc Require Import Clock Mach Inv Top Values Contents.
From LS Require Import Base Cmd Impl Proto ProtoOps Compose Programs Sched Legacy.
From LSGen Require Import GenSrc.
Import ListNotations.
From LS Require Exec WF Spec Refine Main ThreadView.
From LSProps Require C01.

(* ---- tie A: the atomic call sites of the crate, regenerated from src/repr.rs and src/repr/heap_buffer.rs ---- *)
Definition at_least_release (o : ord) : bool := match o with Release | AcqRel | SeqCst => true | _ => false end.
Definition at_least_acquire (o : ord) : bool := match o with Acquire | AcqRel | SeqCst => true | _ => false end.

(* exactly these atomic operations exist (the two in truncate_unchecked are the 32-bit-only arm, dead on 64-bit), so no
   function gives up its reference before it is done with the buffer; the decrement that may release is at least
   Release, the fence before dealloc and the uniqueness load are at least Acquire (the increment may be Relaxed) *)
Theorem C04_atomic_sites :
  map (fun x => (fst (fst x), snd (fst x))) atomic_sites
  = [("truncate_unchecked"%string, AFetchSub); ("truncate_unchecked"%string, AFetchAdd);
     ("make_shallow_clone"%string, AFetchAdd); ("replace_inner"%string, AFetchSub);
     ("replace_inner"%string, AFence); ("is_unique"%string, ALoad)]
  /\ at_least_release ord_replace_inner_0 = true
  /\ at_least_acquire ord_replace_inner_1 = true
  /\ at_least_acquire ord_is_unique_0 = true.
Proof. vm_compute. auto. Qed.

(* ---- the protocol: any number of threads, any interleaving of reads, writes, clones (relaxed increment), releases
   (release decrement), frees (acquire fence + dealloc) and uniqueness probes (acquire loads that may read ANY message
   not yet overwritten in the thread's past - stale reads included), handles moved to spawned threads, joins.  A step
   whose thread-local precondition fails is Stuck (not an execution of a well-typed thread); an access that is not
   ordered after every conflicting access, or touches a freed buffer, is an error.  No schedule reaches an error. ---- *)
Theorem C04_protocol_safe_all_schedules : forall n (sched : list (nat * act)),
  match Mach.run (Mach.init n) sched with Mach.Err _ => False | _ => True end.
Proof. exact all_schedules_safe. Qed.

(* every invariant state is safe and the invariant is preserved: the induction behind the theorem above *)
Theorem C04_invariant : (forall n, Inv.Inv (Mach.init n)) /\ (forall s t a s', Inv.Inv s -> Mach.step s t a = Mach.Ok s' -> Inv.Inv s')
                        /\ (forall s t a e, Inv.Inv s -> Mach.step s t a <> Mach.Err e).
Proof. split; [exact inv_init|]. split; [exact Pres.pres|]. intros s t a e H. apply safe. exact H. Qed.

(* the frame every holder can rely on: a write / realloc step exists only for the one and only holder, a free step only
   when nobody holds a reference — so while a thread holds a handle no other thread changes or releases its buffer *)
Theorem C04_write_excludes_others : forall s u s', Inv.Inv s -> Mach.step s u AWrite = Mach.Ok s' ->
  forall t, t <> u -> Mach.refs (Mach.getth s t) = 0%nat.
Proof. exact write_excludes_others. Qed.
Theorem C04_free_excludes_holders : forall s u s', Inv.Inv s -> Mach.step s u AFree = Mach.Ok s' ->
  forall t, Mach.refs (Mach.getth s t) = 0%nat.
Proof. exact free_excludes_holders. Qed.

(* multi-step: while a thread holds a reference and is itself not running, no successful step of any other thread
   writes, reallocates or frees the buffer, and the buffer stays live — so what it reads through its handle is what was
   there when it last read or wrote (the frame that makes the sequential theorems C01-C03 apply to each thread) *)
Theorem C04_no_interference_while_held : forall t sched s s',
  Inv.Inv s -> (Mach.refs (Mach.getth s t) > 0)%nat -> Forall (fun ua => fst ua <> t) sched -> Mach.run s sched = Mach.Ok s' ->
  Forall (fun ua => snd ua <> AWrite /\ snd ua <> AFree) sched /\ Mach.getth s' t = Mach.getth s t /\ Mach.live s' = true.
Proof. exact no_interference_while_held. Qed.

(* ---- lending: a handle shared BY REFERENCE with a scoped thread (ALend / AReadB / ACloneB / AJoinB): the borrower reads through
   the lender's reference without touching the count; the lender, while the loan lasts, only reads, clones, lends and
   joins (no &mut method: borrowck).  These actions are part of the machine, so C04_protocol_safe_all_schedules covers
   every schedule with any number of borrowers; and in every reachable state with an outstanding loan the buffer is
   live, the lender still holds its reference, and nobody is exclusive or must free.  Cloning THROUGH the borrowed reference (ACloneB) is included: the
   stale-read bound J7 is stated relative to what a thread and the borrowers of its handle have seen. ---- *)
Theorem C04_borrowed_buffer_protected : forall n sched s c p,
  Mach.run (Mach.init n) sched = Mach.Ok s -> Mach.lend (Mach.getth s c) = S p ->
  Mach.live s = true /\ (Mach.refs (Mach.getth s p) > 0)%nat
  /\ forall q, Mach.excl (Mach.getth s q) = false /\ Mach.mustfree (Mach.getth s q) = false.
Proof. exact borrowed_buffer_protected. Qed.
(* the code a borrower runs on &handle is one event per call (as_str / as_bytes: a read; clone: a relaxed increment):
   both are enabled in every invariant state while the loan lasts, and never an error (C04_invariant) *)
Theorem C04_borrower_operations_enabled : forall s c,
  Inv.Inv s -> (c < length (Mach.ths s))%nat -> Mach.started (Mach.getth s c) = true -> Mach.lend (Mach.getth s c) <> 0%nat ->
  (exists s', Mach.step s c AReadB = Mach.Ok s') /\ (exists s', Mach.step s c ACloneB = Mach.Ok s').
Proof.
  intros s c I Hc Hst Hl.
  split; eexists; [exact (enabled s c AReadB I Hc Hst Hl eq_refl)|exact (enabled s c ACloneB I Hc Hst Hl eq_refl)].
Qed.
Example C04_lending_example :
  (exists s, Mach.run (Mach.init 2) [(0,ALend 1);(1,AReadB);(1,ACloneB);(0,ARead);(1,ARead);(1,ARelease);(0,AJoinB 1);
                                     (0,AProbe 0);(0,AWrite);(0,ARelease);(0,Mach.AFence);(0,AReadM);(0,AFree)]%nat
             = Mach.Ok s /\ Mach.live s = false)
  /\ Mach.run (Mach.init 2) [(0,ALend 1);(1,AReadB);(0,AProbe 0)]%nat = Mach.Stuck      (* the lender may not probe / write *)
  /\ Mach.run (Mach.init 2) [(0,ALend 1);(0,ARelease)]%nat = Mach.Stuck                  (* ... nor drop its handle *)
  (* after the join the lender can no longer read the stale count 1 that preceded the borrower's clone *)
  /\ Mach.run (Mach.init 2) [(0,ALend 1);(1,ACloneB);(0,AJoinB 1)]%nat = Mach.Stuck      (* a borrower still holding a clone cannot be joined *)
  /\ Mach.run (Mach.init 3) [(0,ALend 1);(1,ACloneB);(1,ASpawn 2 1);(0,AJoinB 1);(0,AProbe 1)]%nat = Mach.Stuck.
Proof. split; [eexists; vm_compute; split; reflexivity|]. repeat split; vm_compute; reflexivity. Qed.

(* ---- thread-local side: the modelled functions only perform actions whose protocol precondition holds, whatever
   the shared memory returns: the buffer is written / reallocated only after an acquire load returned 1 while the
   thread held a reference; it is read only while holding one; the reference is given up last; dealloc only by the
   thread whose decrement read 1, after the fence ---- *)
Theorem C04_clone_respects_protocol : forall r g, holds g r -> okc (make_shallow_clone r) g (fun r' g' => r' = r /\ holds g' r).
Proof. exact ok_clone. Qed.
Theorem C04_drop_respects_protocol : forall r other g,
  holds g r -> settled g ->
  okc (replace_inner r other) g (fun r' g' => r' = other /\ settled g'
        /\ match r with
           | Heap b _ => g_refs g' b = (g_refs g b - 1)%nat /\ forall b', b' <> b -> same_at g g' b'
           | _ => g' = g
           end).
Proof. exact ok_replace_inner. Qed.
Theorem C04_reserve_respects_protocol : forall r add g,
  holds g r -> settled g ->
  okc (reserve r add) g (fun p g' => settled g' /\ holds g' (fst p) /\ (snd p = true -> holds_excl g' (fst p))
                                     /\ cons g r g' (fst p)).
Proof. exact ok_reserve. Qed.
Theorem C04_ensure_modifiable_respects_protocol : forall r g,
  holds g r -> settled g ->
  okc (ensure_modifiable r) g (fun p g' => settled g' /\ holds g' (fst p) /\ (snd p = true -> holds_excl g' (fst p))
                                          /\ cons g r g' (fst p)).
Proof. exact ok_ensure_modifiable. Qed.

(* every other modelled reader / mutator (as_bytes, push_str, pop, truncate, remove, insert_str, retain, clear, shrink_to,
   reserve, clone-then-drop): from a held handle and nothing owed, only protocol-respecting events, ending with the
   result handle held and nothing owed *)
Theorem C04_every_operation_respects_protocol : forall o r g,
  holds g r -> settled g -> okc (happly o r) g (fun r' g' => settled g' /\ holds g' r' /\ cons g r g' r').
Proof. exact ok_happly. Qed.

(* ---- composition: the interleaving semantics of thread programs over the protocol machine (Compose.v).  One event of a
   well-typed thread keeps the configuration well typed (machine invariant, ghost = machine-local state, continuation
   typed); so does starting the next operation, spawning and joining. ---- *)
Theorem C04_typed_step : forall b0 kof bof cf cf', WT b0 kof bof cf -> cstep b0 cf cf' -> WT b0 kof bof cf'.
Proof. exact typed_step. Qed.
(* hence from a well-typed configuration no interleaving reaches a configuration in which any thread could take a step
   that is a data race, a use after free or a double free *)
Theorem C04_typed_safe : forall b0 kof bof cf cf' t a e,
  WT b0 kof bof cf -> csteps b0 cf cf' -> Mach.step (ms cf') t a <> Mach.Err e.
Proof. exact typed_safe. Qed.
(* and every started thread whose continuation begins with an event can take it: the protocol precondition of the
   corresponding machine action (holds a reference / exclusive / must-free after the fence) holds *)
Theorem C04_typed_progress : forall b0 kof bof cf t,
  WT b0 kof bof cf -> (t < length (tc cf))%nat -> Mach.started (Mach.getth (ms cf) t) = true -> is_event (cur (gettc b0 cf t)) ->
  exists s' c' g', estep b0 t (ms cf) (cur (gettc b0 cf t)) (gh (gettc b0 cf t)) s' c' g'.
Proof. exact typed_progress. Qed.

(* ---- the programs the property quantifies over, for EVERY number of threads and EVERY operation sequence: thread 0
   clones its handle once per child, moves a clone into each spawned thread; every thread then runs its own sequence of
   reads / mutations on its handle and drops it; thread 0 joins.  The initial configuration is well typed, so every
   reachable configuration is well typed and cannot make an erroneous step. ---- *)
Theorem C04_shared_handles_typed : forall b0 l0 n opsf, WT b0 (fun _ => 1%nat) (fun _ => false) (cfg0 b0 l0 n opsf).
Proof. exact shared_handles_typed. Qed.
Theorem C04_shared_handles_safe : forall b0 l0 n opsf cf,
  csteps b0 (cfg0 b0 l0 n opsf) cf ->
  WT b0 (fun _ => 1%nat) (fun _ => false) cf /\ forall t a e, Mach.step (ms cf) t a <> Mach.Err e.
Proof. exact (fun b0 l0 n opsf cf => typed_reach b0 _ _ _ cf (shared_handles_typed b0 l0 n opsf)). Qed.

(* the finding F1, as a theorem: reserve as it was before the repair (probe by decrement, read after giving the
   reference up) cannot be typed against the protocol *)
Theorem C04_legacy_reserve_refuted : forall b l add g (Q : repr * bool -> ghost -> Prop),
  checked_add l add <> None -> g_refs g b = 1%nat -> g_excl g b = false -> g_bor g b = false ->
  ~ okc (legacy_reserve (Heap b l) add) g Q.
Proof. exact legacy_reserve_not_protocol_safe. Qed.

(* non-vacuity: two threads, the stale-read schedule the design worries about *)
Example C04_example :
  (exists s, Mach.run (Mach.init 2) [(0,AClone);(0,ASpawn 1 1);(1,ARead);(1,ARelease);(0,AProbe 0);(0,AWrite);(0,ARelease);(0,Mach.AFence);(0,AReadM);(0,AFree)]%nat = Mach.Ok s /\ Mach.live s = false)
  /\ (exists s, Mach.run (Mach.init 2) [(0,AClone);(0,ASpawn 1 1);(1,ARelease);(0,AProbe 1)]%nat = Mach.Ok s /\ Mach.excl (Mach.getth s 0) = false).
Proof. split; eexists; vm_compute; split; reflexivity. Qed.

(* released exactly once, after the last access: in any reachable configuration in which every started thread has run
   to completion the buffer is no longer live.  (Exactly once: a second release would be a DoubleFree step; after the
   last access: a later access would be a use after free; both are excluded by C04_shared_handles_safe.)  The typing
   tracks the reference counts exactly (cons: an operation changes the thread's count of a buffer exactly by the change
   of its handle), so a thread that finishes holds nothing; the machine invariant (J9) says that a live buffer with no
   holders has a thread that must free it. *)
Theorem C04_all_finished_released : forall b0 kof bof cf,
  WT b0 kof bof cf ->
  (forall t, (t < length (tc cf))%nat -> Mach.started (Mach.getth (ms cf) t) = true -> finished (gettc b0 cf t)) ->
  Mach.live (ms cf) = false.
Proof. exact all_finished_released. Qed.
Theorem C04_shared_handles_released : forall b0 l0 n opsf cf,
  csteps b0 (cfg0 b0 l0 n opsf) cf ->
  (forall t, (t < length (tc cf))%nat -> Mach.started (Mach.getth (ms cf) t) = true -> finished (gettc b0 cf t)) ->
  Mach.live (ms cf) = false.
Proof. exact (fun b0 l0 n opsf cf Hs => all_finished_released b0 _ _ cf (typed_steps b0 _ _ _ cf (shared_handles_typed b0 l0 n opsf) Hs)). Qed.

(* ---- sharing BY REFERENCE (std::thread::scope), in the program semantics: thread 0 holds two handles on the buffer and
   lends one of them to n+1 scoped threads, for every n; each scoped thread runs any sequence of reads through the
   borrowed handle and clones through it (every clone is then its own handle, on which it runs any sequence of reads and
   mutations before dropping it); meanwhile the OWNER runs any sequence of reads and mutations on its other handle and
   drops it, and then reads and clones through the handle it has lent like any borrower (any sequence of operations on
   each clone); the scope ends when all scoped threads have run to completion; then thread 0 runs any sequence on the
   handle it had lent and drops it.  The typing carries who borrows (g_bor) and whom a thread has lent to (lt, in
   agreement with the machine's lend fields: wt_loans); while a loan is outstanding the lent handle is set aside: the
   lender's commands are typed with one reference fewer (g_hide) — so they can do anything with its other handles, and the
   machine state counts one reference beyond the ghost (agreeh) — and it does not spawn.  The initial configuration is
   well typed, so every reachable configuration is (C04_typed_step), none can make an erroneous step, every thread's next
   event is enabled (C04_typed_progress: a borrower's read and clone through the borrowed handle, a lender's release and
   uniqueness probe on its other handle included), and when everybody has finished the buffer has been released. ---- *)
Theorem C04_scoped_handles_typed : forall b0 l0 n bopsf ops1 lops ops0,
  WT b0 (fun _ => 0%nat) (fun t => negb (Nat.eqb t 0)) (scfg0 b0 l0 n bopsf ops1 lops ops0).
Proof. exact scoped_handles_typed. Qed.
Theorem C04_scoped_handles_safe : forall b0 l0 n bopsf ops1 lops ops0 cf,
  csteps b0 (scfg0 b0 l0 n bopsf ops1 lops ops0) cf ->
  WT b0 (fun _ => 0%nat) (fun t => negb (Nat.eqb t 0)) cf /\ forall t a e, Mach.step (ms cf) t a <> Mach.Err e.
Proof. exact (fun b0 l0 n bopsf ops1 lops ops0 cf => typed_reach b0 _ _ _ cf (scoped_handles_typed b0 l0 n bopsf ops1 lops ops0)). Qed.
Theorem C04_scoped_handles_released : forall b0 l0 n bopsf ops1 lops ops0 cf,
  csteps b0 (scfg0 b0 l0 n bopsf ops1 lops ops0) cf ->
  (forall t, (t < length (tc cf))%nat -> Mach.started (Mach.getth (ms cf) t) = true -> finished (gettc b0 cf t)) ->
  Mach.live (ms cf) = false.
Proof.
  exact (fun b0 l0 n bopsf ops1 lops ops0 cf Hs =>
           all_finished_released b0 _ _ cf (typed_steps b0 _ _ _ cf (scoped_handles_typed b0 l0 n bopsf ops1 lops ops0) Hs)).
Qed.

(* non-vacuity of the composition: a concrete interleaving (threads alternate event by event; thread 0 pushes and reads,
   thread 1 removes, clones and drops the clone) of the two-thread instance of the programs above runs to completion:
   both threads finish and the buffer has been released (exactly once: a second release would be DoubleFree) *)
Definition ex_ops (i : nat) : list hop :=
  match i with O => [HPush [97%N]; HRead] | _ => [HRemove 0%N; HCloneDrop] end.
Definition ex_sched : list choice :=
  map (fun i => {| who := Nat.modulo i 2; probe := 0; fresh_id := Some (S i) |}) (seq 0 200).
Example C04_execution_example :
  let final := run_sched 0%nat (cfg0 0%nat 5%N 1 ex_ops) ex_sched in
  csteps 0%nat (cfg0 0%nat 5%N 1 ex_ops) final
  /\ Mach.live (ms final) = false
  /\ forallb (fun x => match cur x, rest x with Ret _, [] => true | _, _ => false end) (tc final) = true.
Proof. cbv zeta. split; [apply run_sched_sound|]. vm_compute. auto. Qed.
(* and of the scoped family: the owner clones, lends one handle to two scoped threads; each reads through the borrowed
   handle, clones through it, edits its clone (copy-on-write) and drops it; meanwhile the owner pushes onto its other
   handle (a copy: the count is at least 2), removes from it and drops it, then reads and clones through the lent handle;
   the scope ends; the owner pushes and drops: everybody finishes and the buffer has been released *)
Definition ex_bops (i : nat) : list bop :=
  match i with 1%nat => [BRead; BClone [HPush [98%N]; HRead]] | _ => [BClone [HRemove 0%N]; BRead] end.
Definition ex_sched3 : list choice :=
  map (fun i => {| who := Nat.modulo i 3; probe := 0; fresh_id := Some (S i) |}) (seq 0 900).
Example C04_scoped_execution_example :
  let c0 := scfg0 0%nat 5%N 1 ex_bops [HPush [99%N]; HRemove 0%N] [BRead; BClone [HPop]] [HPush [97%N]] in
  let final := run_sched 0%nat c0 ex_sched3 in
  csteps 0%nat c0 final
  /\ Mach.live (ms final) = false
  /\ forallb (fun x => match cur x, rest x with Ret _, [] => true | _, _ => false end) (tc final) = true.
Proof. cbv zeta. split; [apply run_sched_sound|]. vm_compute. auto. Qed.

(* ---- (8) "each thread reads back exactly what its own operations would produce sequentially".
   The sequential interpreter (Cmd.run) reads every count as "the references of this thread's world + ext", where ext is
   an arbitrary oracle consulted afresh at every atomic read; all of C01's theorems are proved for an arbitrary oracle.
   So: from ANY well-formed world of a thread (its handles may share buffers with other threads), for EVERY history of its
   operations and EVERY sequence of contributions of the other threads to the counts it reads, the thread's world stays
   well-formed, nothing undefined is reached, and the texts and returned values are Spec's (String's). ---- *)
Theorem C04_thread_results_sequential : forall w0 ops,
  WF.WF w0 -> Forall (Main.op_wf (Cmd.statics (Exec.wmem w0))) ops ->
  let '(w, outs) := Exec.execs w0 ops in
  WF.WF w /\ Forall (fun o => forall u, o <> Exec.UbOut u) outs
  /\ (forallb (fun o => negb (Spec.alloc_failure o)) outs = true ->
      (WF.abs w, outs) = Main.spec_execs (Cmd.statics (Exec.wmem w0)) (WF.abs w0) ops).
Proof. intros w0 ops. exact (ThreadView.thread_results_sequential w0 ops C01.C01_gen_ok). Qed.

(* ---- (9) the link between the two: this oracle is how the other threads appear.  In the protocol machine every value an
   atomic returns to thread t — the head of the modification order for its RMWs, any message a stale acquire load may
   still read — is at least the number of references t holds ... ---- *)
Theorem C04_rmw_reads_own_plus_rest : forall s t a s',
  Inv.Inv s -> a = AClone \/ a = ACloneB \/ a = ARelease -> Mach.step s t a = Mach.Ok s' -> (Mach.refs (getth s t) <= val (hdm s))%nat.
Proof. exact rmw_value_ge_refs. Qed.
Theorem C04_load_reads_own_plus_rest : forall s t p m s',
  Inv.Inv s -> Mach.step s t (AProbe p) = Mach.Ok s' -> nth_error (msgs s) p = Some m -> (Mach.refs (getth s t) <= val m)%nat.
Proof. exact probe_value_ge_refs. Qed.
(* ... and in every configuration a well-typed program reaches, the value handed to a thread's continuation by a load or
   RMW of the shared count is that thread's own references (its ghost count) plus a non-negative rest *)
Theorem C04_typed_values_own_plus_rest : forall b0 kof bof cf0 cf t s' c' g',
  WT b0 kof bof cf0 -> csteps b0 cf0 cf -> (t < length (tc cf))%nat -> started (getth (ms cf) t) = true ->
  estep b0 t (ms cf) (cur (gettc b0 cf t)) (gh (gettc b0 cf t)) s' c' g' ->
  own_plus_rest b0 (gh (gettc b0 cf t)) (cur (gettc b0 cf t)) c'.
Proof. exact typed_values_ge_own. Qed.

(* ... and conversely every stream of values the machine can hand to a thread IS such an oracle: [runv] is the sequential
   interpreter with the values of the atomic reads supplied from outside (clamped from below by the world's own count,
   which by the theorem above changes nothing); for every stream there is an oracle under which [run] performs exactly that
   execution.  So the "for every oracle" of (8) covers everything other threads can make a thread read. *)
Theorem C04_every_value_stream_is_an_oracle : forall (R : Type) (c : Cmd.cmd R) (av : N -> N) (m : Cmd.mem),
  exists ex, Cmd.run c (ThreadView.with_ext m ex) = (let (o, m') := ThreadView.runv c av m in (o, ThreadView.with_ext m' ex)).
Proof. exact (@ThreadView.every_value_stream_is_an_oracle). Qed.

(* non-vacuity of (8): a foreign reference visible at EVERY atomic read (the uniqueness test never succeeds, dropping the
   last local handle frees nothing) and one that comes and goes: same texts and results as String *)
Example C04_thread_view_example :
  snd (Exec.execs (Exec.world0x [] (fun _ _ => false) ThreadView.busy) ThreadView.view_ops) = snd (Main.spec_execs [] [] ThreadView.view_ops)
  /\ WF.abs (fst (Exec.execs (Exec.world0x [] (fun _ _ => false) ThreadView.flicker) ThreadView.view_ops)) = fst (Main.spec_execs [] [] ThreadView.view_ops).
Proof. vm_compute. split; reflexivity. Qed.

(* (11) contents.  The machine carries no bytes; give every write step of a schedule the value it writes.  While a thread
   can reach the buffer (holds a reference, reads through a loan, or must free it) and itself moves too, every write,
   reallocation or release in the schedule is its own — so what the buffer holds is what that thread's own writes made of
   it, at every point on the way, for every schedule of the others. *)
Theorem C04_writes_while_held_are_own : forall t sched s s',
  Inv s -> Mach.run s sched = Mach.Ok s' -> held_through s t sched ->
  Forall (fun ua => (snd ua = AWrite \/ snd ua = AFree) -> fst ua = t) sched.
Proof. exact writes_while_held_are_own. Qed.
Theorem C04_contents_thread_local : forall (D : Type) t (l1 l2 : list (dstep D)) s s' (d : D),
  Inv s -> Mach.run s (plain D (l1 ++ l2)) = Mach.Ok s' -> held_through s t (plain D (l1 ++ l2)) ->
  contents D d l1 = own_contents D t d l1.
Proof. exact contents_thread_local_prefix. Qed.
(* ... and in every configuration a well-typed program reaches, an event that writes, moves, re-initialises or
   reallocates the shared buffer finds no other thread able to reach it *)
Theorem C04_typed_write_is_sole : forall b0 kof bof cf0 cf t s' c' g',
  WT b0 kof bof cf0 -> csteps b0 cf0 cf ->
  estep b0 t (ms cf) (cur (gettc b0 cf t)) (gh (gettc b0 cf t)) s' c' g' -> writes_b0 b0 (cur (gettc b0 cf t)) ->
  forall u, u <> t -> ~ Contents.holds (ms cf) u.
Proof. exact typed_write_is_sole. Qed.
(* every execution of a program (typed or not) is a schedule of the machine, so what is proved of all schedules holds of all
   executions; for a typed program: along its schedule, whatever a thread that can reach the buffer throughout finds
   written, reallocated or released, it did itself *)
Theorem C04_executions_are_schedules : forall b0 cf cf', csteps b0 cf cf' -> exists sched, Mach.run (ms cf) sched = Mach.Ok (ms cf').
Proof. exact csteps_schedule. Qed.
Theorem C04_typed_execution_contents : forall b0 kof bof cf0 cf,
  WT b0 kof bof cf0 -> csteps b0 cf0 cf ->
  exists sched, Mach.run (ms cf0) sched = Mach.Ok (ms cf)
    /\ forall t, held_through (ms cf0) t sched -> Forall (fun ua => (snd ua = AWrite \/ snd ua = AFree) -> fst ua = t) sched.
Proof. exact typed_execution_contents. Qed.
(* the premises are met (write 7, share, the other thread reads and drops, write 9: thread 0 holds throughout), and a
   write by a thread that merely shares is not a step of the machine *)
Example C04_contents_example :
  (Mach.is_ok (Mach.run (Mach.init 1) (plain nat Contents.ex_sched)) = true /\ held_through (Mach.init 1) 0 (plain nat Contents.ex_sched)
  /\ contents nat 0 Contents.ex_sched = 9
  /\ Mach.run (Mach.init 1) (plain nat [ (0, AClone, 0); (0, ASpawn 1 1, 0); (1, AProbe 0, 0); (1, AWrite, 5) ]) = Mach.Stuck)%nat.
Proof. split; [exact Contents.ex_sched_runs|]. split; [exact Contents.ex_sched_held|]. split; [vm_compute; reflexivity|exact Contents.ex_foreign_write_stuck]. Qed.

(* (12) a lender and its other handles.  While &h is lent, the lender may keep using every OTHER handle it holds on the
   same buffer: clone, drop (a release needs two references: the lent one stays), and the uniqueness probe behind every
   &mut method, which can never observe 1 whichever message it reads (invariant J11: a message a thread may still read
   counts at least that thread's own references) — so the lender never writes in place under a borrower *)
Theorem C04_lender_release_enabled : forall s t, Inv s -> (t < length (ths s))%nat -> started (getth s t) = true ->
  (2 <= refs (getth s t))%nat -> exists s', Mach.step s t ARelease = Mach.Ok s'.
Proof. exact lender_release_enabled. Qed.
Theorem C04_lender_probe_not_exclusive : forall s t p s', Inv s -> lends_from s t = true -> Mach.step s t (AProbe p) = Mach.Ok s' ->
  excl (getth s' t) = false /\ refs (getth s' t) = refs (getth s t) /\ (2 <= refs (getth s t))%nat.
Proof. exact lender_probe_not_exclusive. Qed.
Example C04_lender_example :
  Mach.is_ok (Mach.run (Mach.init 1) [ (0, AClone); (0, ALend 1); (1, AReadB); (0, AProbe 0); (0, ARelease); (1, ACloneB); (1, ARead);
                        (0, ARead); (1, ARelease); (0, AJoinB 1); (0, AProbe 0); (0, AWrite) ])%nat = true
  /\ Mach.run (Mach.init 1) [ (0, ALend 1); (0, ARelease) ]%nat = Mach.Stuck
  /\ Mach.run (Mach.init 1) [ (0, ALend 1); (0, AProbe 0) ]%nat = Mach.Stuck.
Proof. exact lender_edits_other_handle. Qed.
(* ... and move its other handles into new threads; the lent one stays *)
Example C04_lender_spawn_example :
  Mach.is_ok (Mach.run (Mach.init 2) [ (0, AClone); (0, ALend 1); (0, ASpawn 2 1); (1, AReadB); (2, ARead); (2, AProbe 0); (2, ARelease);
                        (1, ACloneB); (1, ARelease); (0, AJoinB 1); (0, AJoin 2); (0, AProbe 0); (0, AWrite); (0, ARelease);
                        (0, Mach.AFence); (0, AFree) ])%nat = true
  /\ Mach.run (Mach.init 2) [ (0, ALend 1); (0, ASpawn 2 1) ]%nat = Mach.Stuck.
Proof. exact lender_spawns_other_handle. Qed.

Print Assumptions C04_atomic_sites.
Print Assumptions C04_protocol_safe_all_schedules.
Print Assumptions C04_invariant.
Print Assumptions C04_write_excludes_others.
Print Assumptions C04_free_excludes_holders.
Print Assumptions C04_no_interference_while_held.
Print Assumptions C04_borrowed_buffer_protected.
Print Assumptions C04_borrower_operations_enabled.
Print Assumptions C04_lending_example.
Print Assumptions C04_clone_respects_protocol.
Print Assumptions C04_drop_respects_protocol.
Print Assumptions C04_reserve_respects_protocol.
Print Assumptions C04_ensure_modifiable_respects_protocol.
Print Assumptions C04_every_operation_respects_protocol.
Print Assumptions C04_typed_step.
Print Assumptions C04_typed_safe.
Print Assumptions C04_typed_progress.
Print Assumptions C04_shared_handles_typed.
Print Assumptions C04_shared_handles_safe.
Print Assumptions C04_all_finished_released.
Print Assumptions C04_shared_handles_released.
Print Assumptions C04_legacy_reserve_refuted.
Print Assumptions C04_example.
Print Assumptions C04_execution_example.
Print Assumptions C04_thread_results_sequential.
Print Assumptions C04_rmw_reads_own_plus_rest.
Print Assumptions C04_load_reads_own_plus_rest.
Print Assumptions C04_typed_values_own_plus_rest.
Print Assumptions C04_thread_view_example.
Print Assumptions C04_scoped_handles_typed.
Print Assumptions C04_scoped_handles_safe.
Print Assumptions C04_scoped_handles_released.
Print Assumptions C04_scoped_execution_example.
Print Assumptions C04_every_value_stream_is_an_oracle.
Print Assumptions C04_writes_while_held_are_own.
Print Assumptions C04_contents_thread_local.
Print Assumptions C04_typed_write_is_sole.
Print Assumptions C04_contents_example.
Print Assumptions C04_lender_release_enabled.
Print Assumptions C04_lender_probe_not_exclusive.
Print Assumptions C04_lender_example.
Print Assumptions C04_lender_spawn_example.
Print Assumptions C04_executions_are_schedules.
Print Assumptions C04_typed_execution_contents.
