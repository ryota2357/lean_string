(* C14 — integers format exactly as Display does, for every value of every type (<= 64 bit). *)
From Coq Require Import ZArith Lia List Bool.
From LS Require Import Base NumModel Num Exec Main.
From LSGen Require Import GenSrc.
From LSProps Require Import C01.
Open Scope N_scope.

Definition ty_range (t : int_ty) : Z * Z :=
  match t with
  | TI8 => (-128, 127) | TU8 => (0, 255) | TI16 => (-32768, 32767) | TU16 => (0, 65535)
  | TI32 => (-2147483648, 2147483647) | TU32 => (0, 4294967295)
  | TI64 | TIsize => (-9223372036854775808, 9223372036854775807)
  | TU64 | TUsize => (0, 18446744073709551615)
  end%Z.
Definition all_tys : list int_ty := [TI8; TU8; TI16; TU16; TI32; TU32; TI64; TU64; TIsize; TUsize].

(* tie A obligations: what translate.py generated from num_to_repr.rs satisfies the side conditions *)
Theorem C14_generated_data_ok :
  forallb (fun t => check_table (table_of t) (fst (ty_range t)) (snd (ty_range t))) all_tys = true
  /\ lut_ok dec_digits_lut = true /\ writer_shape_checked = true.
Proof.
  destruct C01_gen_ok as (Hl & Ht). split; [|split; [exact Hl | reflexivity]].
  apply forallb_forall. intros t _. exact (Ht t).
Qed.

(* every value of every type: the digit-count table gives exactly the length, every store of the unrolled
   writer is inside the buffer, the cursor ends at 0 and the text is the decimal representation *)
Theorem C14_int_text : forall t z,
  (fst (ty_range t) <= z <= snd (ty_range t))%Z ->
  int_to_text dec_digits_lut (table_of t) z = Some (dec z).
Proof.
  intros t z Hz. destruct C01_gen_ok as (Hl & Ht). exact (int_to_text_correct _ _ _ _ Hl (Ht t) z Hz).
Qed.

Theorem C14_digit_count_is_length : forall t z,
  (fst (ty_range t) <= z <= snd (ty_range t))%Z ->
  lookup (table_of t) z = Some (len (dec z)) /\ 1 <= len (dec z) <= 20.
Proof.
  intros t z Hz. destruct C01_gen_ok as (_ & Ht).
  assert (Hr : (-9223372036854775808 <= z <= 18446744073709551615)%Z) by (destruct t; cbn in Hz; lia).
  rewrite (dec_length z). split; [exact (lookup_is_length _ _ _ (Ht t) z Hz) | exact (dlen_le_20 z Hr)].
Qed.

(* non-vacuity: concrete values at the edges *)
Example C14_examples :
  int_to_text dec_digits_lut (table_of TI64) (-9223372036854775808) = Some (dec (-9223372036854775808))
  /\ dec (-9223372036854775808) = [45;57;50;50;51;51;55;50;48;51;54;56;53;52;55;55;53;56;48;56]
  /\ int_to_text dec_digits_lut (table_of TU8) 0 = Some [48]
  /\ int_to_text dec_digits_lut (table_of TU16) 10000 = Some [49;48;48;48;48].
Proof. vm_compute. auto. Qed.

Print Assumptions C14_generated_data_ok.
Print Assumptions C14_int_text.
Print Assumptions C14_digit_count_is_length.
Print Assumptions C14_examples.
