(* C20 — two words, a free niche, and the same behaviour in every configuration. *)
From Coq Require Import Lia Arith ZArith List Bool.
From LS Require Import Base Utf8 Utf8Spec Cmd Impl Exec Inv Specs WF Spec Refine Main Layout.
From LSGen Require Import GenSrc.
From LSProps Require Import C01.
Open Scope N_scope.

(* tie A: the LastByte enum regenerated from src/repr/last_byte.rs declares exactly 0x00 ..= StaticMarker (0xD1),
   the LengthNN variants are MASK | NN, and nothing above StaticMarker is declared: 0xD2..=0xFF stay free *)
Theorem C20_last_byte_table : last_byte_table_ok = true /\ STATIC_MARKER = 209 /\ HEAP_MARKER = 208.
Proof. vm_compute. auto. Qed.

(* every handle of every reachable world: the tag byte is a declared discriminant <= 0xD1 (so Some(s) can never be
   mistaken for None, whose tag lies above), the three storage states are told apart correctly by the tag, and the
   branch-free length decode reads the handle's length *)
Theorem C20_tag_range : forall w i r,
  WF w -> nth_error (pool w) i = Some (Some r) ->
  raw_last_byte (encode r) <= STATIC_MARKER
  /\ raw_is_heap (encode r) = is_heap r /\ raw_is_static (encode r) = is_static r
  /\ raw_len (encode r) = repr_len r.
Proof.
  intros w i r HW Hi. pose proof (wf_handles _ HW _ _ Hi) as Hr.
  destruct (raw_dispatch_correct _ _ r Hr) as (H1 & H2 & H3). split; [exact H3|]. split; [exact H1|]. split; [exact H2|].
  eapply raw_len_correct; [exact Hr|]. eapply handle_len_bound; [exact (wf_mi _ HW)|exact Hr].
Qed.

(* all reachable handles: by C01_histories every world reached by a history is WF *)
Theorem C20_reachable : forall st orc ops i r,
  Forall Valid st -> Forall (op_wf st) ops ->
  nth_error (pool (fst (execs (world0 st orc) ops))) i = Some (Some r) ->
  raw_last_byte (encode r) <= 209.
Proof.
  intros st orc ops i r Hst Hwf Hi. pose proof (C01_histories st orc ops Hst Hwf) as H.
  destruct (execs (world0 st orc) ops) as [w outs]. destruct H as (HW & _). cbn [fst] in Hi.
  apply (C20_tag_range w i r HW Hi).
Qed.

(* non-vacuity: a full 16-byte inline string whose last byte is a continuation byte 0xBF *)
Example C20_example :
  let t16 := [97;97;97;97;97;97;97;97;97;97;97;97;97;97;194;191] in
  let w := fst (execs (world0 [] (fun _ _ => false)) [OFromStr Plain t16]) in
  exists r, nth_error (pool w) 0 = Some (Some r) /\ raw_last_byte (encode r) = 191 /\ raw_len (encode r) = 16.
Proof.
  intros t16 w. exists (Inline t16).
  split; [vm_compute; reflexivity | split; reflexivity].
Qed.

Print Assumptions C20_last_byte_table.
Print Assumptions C20_tag_range.
Print Assumptions C20_reachable.
Print Assumptions C20_example.
