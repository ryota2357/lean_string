(* C02 — clone-on-write isolation: mutating one handle never changes another. *)
From Coq Require Import Lia Arith ZArith List Bool.
From LS Require Import Base Utf8 Utf8Spec Cmd Impl Exec Inv Specs WF Spec Refine Main.
From LSProps Require Import C01.
Open Scope N_scope.

(* one step, whatever its outcome (success, allocation error, index panic, callback panic): every slot that is not
   the target keeps its handle bit for bit, reads the same text and reports the same capacity *)
Theorem C02_frame : forall w o w' out j rj,
  WF w -> op_wf (statics (wmem w)) o -> exec w o = (w', out) ->
  target o <> Some j -> nth_error (pool w) j = Some (Some rj) ->
  nth_error (pool w') j = Some (Some rj)
  /\ text_of (wmem w') rj = text_of (wmem w) rj /\ cap_of (wmem w') rj = cap_of (wmem w) rj.
Proof.
  intros w o w' out j rj HW Hwf He Ht Hj. exact (ep_frame _ _ _ _ (C01_step w o w' out HW Hwf He) j rj Ht Hj).
Qed.

(* histories: a slot's text changes only at steps that target it *)
Theorem C02_histories : forall ops w j rj,
  WF w -> Forall (op_wf (statics (wmem w))) ops -> Forall (fun o => target o <> Some j) ops ->
  nth_error (pool w) j = Some (Some rj) ->
  let w' := fst (execs w ops) in
  nth_error (pool w') j = Some (Some rj) /\ text_of (wmem w') rj = text_of (wmem w) rj.
Proof.
  intros ops w j rj HW. induction ops as [|o ops IH] using rev_ind; intros Hwf Ht Hj; [cbn; auto|].
  apply Forall_app in Hwf as (Hwf & Hwo%Forall_inv), Ht as (Ht & Hto%Forall_inv).
  pose proof (execs_sound_from w ops C01_gen_ok HW Hwf) as Hs. specialize (IH Hwf Ht Hj). cbv zeta in *.
  rewrite execs_snoc. destruct (execs w ops) as [w1 outs]. destruct Hs as (HW1 & Es & _), IH as (A & B).
  rewrite <- Es in Hwo. destruct (exec w1 o) as [w2 out] eqn:He. cbn [fst] in *.
  destruct (C02_frame w1 o w2 out j rj HW1 Hwo He Hto A) as (C & D & _). split; [exact C|congruence].
Qed.

(* the case the property names: two handles share one buffer with different lengths; writing through one (here a
   push that happens in place once the other owner is gone) leaves the third clone's text alone *)
Example C02_example :
  let t20 := [97;98;99;100;101;102;103;104;105;106;107;108;109;110;111;112;113;114;115;116] in
  let ops := [OFromStr Plain t20; OClone 0%nat; OClone 0%nat; OTruncate Plain 1%nat 4; ODrop 0%nat;
              OPushStr Plain 1%nat [88;89;90]; ORemove Plain 1%nat 0; OInsertStr Plain 1%nat 1 [33;33]] in
  abs (fst (execs (world0 [] (fun _ _ => false)) ops))
  = [None; Some [98;33;33;99;100;88;89;90]; Some t20].
Proof. vm_compute. reflexivity. Qed.

Print Assumptions C02_frame.
Print Assumptions C02_histories.
Print Assumptions C02_example.
