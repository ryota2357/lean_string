(* C17 — equality, ordering, hashing and formatting depend on the text alone. *)
From Coq Require Import Lia Arith ZArith List Bool.
From LS Require Import Base Utf8 Utf8Spec Cmd Impl Wp Exec Inv Specs Specs2 WF Spec Refine Main.
From LSGen Require Import GenSrc.
From LSProps Require Import C01.
From Coq Require Import String.
Open Scope N_scope.

(* PartialEq / Ord / Hash / Display / Debug / Borrow / AsRef / Deref all go through as_str() (checked textually by
   the harness build: lib.rs:935-1069); what they see is the result of as_bytes.  Theorem: as_bytes returns exactly
   the abstract text, whatever the storage state, capacity, sharing or stale bytes behind the end - so two handles
   with the same text are indistinguishable through it - and it changes nothing. *)
Theorem C17_as_bytes_is_text : forall w i r,
  WF w -> nth_error (pool w) i = Some (Some r) ->
  exists m', run (as_bytes r) (wmem w) = (OVal (text_of (wmem w) r), m')
             /\ heap m' = heap (wmem w) /\ statics m' = statics (wmem w).
Proof.
  intros w i r HW Hi. pose proof (wf_handles _ HW _ _ Hi) as Hr.
  assert (H : wp (as_bytes r) (fun o m' => o = OVal (text_of (wmem w) r) /\ heap m' = heap (wmem w)
                                           /\ statics m' = statics (wmem w)) (wmem w)).
  { eapply as_bytes_wp; [exact Hr|apply read_only_refl|]. intros m' ((E & _) & Hh & _). auto. }
  unfold wp in H. destruct (run (as_bytes r) (wmem w)) as [o m']. destruct H as (-> & H1 & H2). exists m'. auto.
Qed.

Theorem C17_repr_independent : forall w i j r1 r2,
  WF w -> nth_error (pool w) i = Some (Some r1) -> nth_error (pool w) j = Some (Some r2) ->
  text_of (wmem w) r1 = text_of (wmem w) r2 ->
  fst (run (as_bytes r1) (wmem w)) = fst (run (as_bytes r2) (wmem w)).
Proof.
  intros w i j r1 r2 HW H1 H2 E.
  destruct (C17_as_bytes_is_text w i r1 HW H1) as (m1 & -> & _).
  destruct (C17_as_bytes_is_text w j r2 HW H2) as (m2 & -> & _). cbn [fst]. rewrite E. reflexivity.
Qed.

(* tie A for this property: in the source regenerated on this run, every comparison / hashing / formatting / borrowing
   impl of lib.rs (Deref, Display, Debug, AsRef<str|OsStr|[u8]>, Borrow, the nine PartialEq impls, Ord, PartialOrd, Hash)
   calls nothing but as_str / as_bytes / as_ref and the corresponding operation of str — so what they compute is a
   function of the bytes C17_as_bytes_is_text describes *)
Definition text_only (calls : list string) : bool :=
  forallb (fun c => existsb (String.eqb c)
    ["as_str"; "as_bytes"; "as_ref"; "eq"; "cmp"; "hash"; "fmt"; "new"; "Some"]%string) calls.
Definition is_view_fn (name : string) : bool :=
  existsb (fun p => String.prefix p name) ["deref#"; "fmt#"; "as_ref#"; "borrow#"; "eq#"; "cmp#"; "partial_cmp#"; "hash#"]%string.
Theorem C17_views_go_through_as_str :
  forallb (fun e => match e with (file, name, calls) =>
             negb (String.eqb file "lib" && is_view_fn name) || text_only calls end) wrappers = true
  /\ List.length (filter (fun e => match e with (file, name, _) => String.eqb file "lib" && is_view_fn name end) wrappers) = 19%nat.
Proof. vm_compute. split; reflexivity. Qed.

(* non-vacuity: the same text held inline after a pop (stale byte behind the end), on the heap with slack, and as a
   truncated static *)
Example C17_example :
  let st := [[97;98;99;100;101;102;103;104;105;106;107;108;109;110;111;112;113;114;115;116]] in
  let ops := [OFromStr Plain [97;98;99;100]; OPop Plain 0%nat; OWithCapacity Plain 40; OPushStr Plain 1%nat [97;98;99];
              OFromStatic 0%nat; OTruncate Plain 2%nat 3] in
  let w := fst (execs (world0 st (fun _ _ => false)) ops) in
  abs w = [Some [97;98;99]; Some [97;98;99]; Some [97;98;99]]
  /\ map (option_map is_heap) (pool w) = [Some false; Some true; Some false]
  /\ map (option_map is_static) (pool w) = [Some false; Some false; Some true].
Proof. vm_compute. repeat split; reflexivity. Qed.

Print Assumptions C17_as_bytes_is_text.
Print Assumptions C17_repr_independent.
Print Assumptions C17_views_go_through_as_str.
Print Assumptions C17_example.
