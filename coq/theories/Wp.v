(* Wp.v — weakest preconditions for [run], and how they compose along [bind]. *)
From LS Require Import Base Cmd.

Definition wp {R} (c : cmd R) (Q : out R -> mem -> Prop) (m : mem) : Prop :=
  let (o, m') := run c m in Q o m'.

(* every event that names a buffer starts by looking it up and refusing a dead one *)
Local Ltac on_buf m b :=
  destruct (nth_error (heap m) b) as [x|]; [destruct (live x)|]; cbn [negb]; try reflexivity.
Local Ltac checked := destruct (negb _); try reflexivity.

Lemma run_bind {A B} (c : cmd A) (f : A -> cmd B) m :
  run (bind c f) m =
  match run c m with
  | (OVal r, m') => run (f r) m'
  | (OUb u, m') => (OUb u, m')
  end.
Proof.
  revert m; induction c as [r| |n k IH|b o n k IH|b n k IH|b c k IH|b k IH|b a o k IH|b o k IH|o k IH|p off n k IH|p off bs k IH|p s d n k IH];
    intros m; cbn [bind run]; try reflexivity.
  - destruct (orc m (nreq m) n); apply IH.
  - on_buf m b. checked. destruct (orc m (nreq m) n); apply IH.
  - on_buf m b. checked. apply IH.
  - on_buf m b. apply IH.
  - on_buf m b. apply IH.
  - on_buf m b. apply IH.
  - on_buf m b. apply IH.
  - apply IH.
  - destruct p as [b|s].
    + on_buf m b. checked. apply IH.
    + destruct (nth_error (statics m) s) as [t|]; [|reflexivity]. checked. apply IH.
  - destruct p as [b|s]; [|reflexivity]. on_buf m b. checked. apply IH.
  - destruct p as [b|s0]; [|reflexivity]. on_buf m b. checked. apply IH.
Qed.

(* The postcondition of [c] in [bind c f] is written out, so that once a rule for [c] has been applied the goal
   is [wp (f r) Q m'] with no further step. *)
Lemma wp_seq {A B} (c : cmd A) (f : A -> cmd B) (Q : out B -> mem -> Prop) m :
  wp c (fun o m' => match o with OVal r => wp (f r) Q m' | OUb u => Q (OUb u) m' end) m -> wp (bind c f) Q m.
Proof. unfold wp. rewrite run_bind. destruct (run c m) as [[r|u] m']; auto. Qed.

Lemma wp_ret {R} (r : R) (Q : out R -> mem -> Prop) m : Q (OVal r) m -> wp (Ret r) Q m.
Proof. auto. Qed.
Lemma wp_mono {R} (c : cmd R) (Q Q' : out R -> mem -> Prop) m :
  wp c Q m -> (forall o m', Q o m' -> Q' o m') -> wp c Q' m.
Proof. unfold wp. destruct (run c m). auto. Qed.
