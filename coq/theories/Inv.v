(* [MI h own]: every live buffer is well formed and its count is the number [own b] of handles that name it; a buffer
   nobody names is not live.  Each event, and each function of heap_buffer.rs (and replace_inner), gets a wp rule whose
   continuation receives the memory afterwards as equations on heap, nreq and [same_env]. *)
From Coq Require Import Arith.
From LS Require Import Base Utf8Spec Utf8Facts Cmd Impl Wp ListFacts Growth.
From LSGen Require Import GenSrc.
Open Scope N_scope.

Definition mkbuf (c : N) (d : list N) : buf :=
  {| live := true; asize := HDR + c; count := 1; cap := c; data := d |}.
Definition buf_wf (x : buf) : Prop :=
  asize x = HDR + cap x /\ len (data x) = cap x /\ cap x <= MAX_LEN.

Definition names (r : repr) (b : bufid) : bool :=
  match r with Heap b' _ => Nat.eqb b' b | _ => false end.
Definition one (c : bool) : N := if c then 1 else 0.

Definition MI (h : list buf) (own : bufid -> N) : Prop :=
  forall b, match nth_error h b with
            | Some x => if live x then buf_wf x /\ count x = own b /\ 1 <= own b else own b = 0
            | None => own b = 0
            end.

Lemma MI_lookup {h own b x} :
  MI h own -> nth_error h b = Some x -> live x = true -> buf_wf x /\ count x = own b /\ 1 <= own b.
Proof. intros H Hb Hl. specialize (H b). rewrite Hb, Hl in H. exact H. Qed.
Lemma MI_owned_live h own b :
  MI h own -> 1 <= own b -> exists x, nth_error h b = Some x /\ live x = true /\ buf_wf x /\ count x = own b.
Proof.
  intros H Ho. specialize (H b). destruct (nth_error h b) as [x|]; [|lia].
  destruct (live x) eqn:E; [|lia]. exists x. intuition.
Qed.
Lemma MI_ext h own own' : MI h own -> (forall b, own' b = own b) -> MI h own'.
Proof. intros H E b. specialize (H b). rewrite E. exact H. Qed.
Lemma MI_new h own own' x :
  MI h own -> live x = true -> buf_wf x -> count x = 1 ->
  (forall b, own' b = own b + one (Nat.eqb b (length h))) ->
  MI (h ++ [x]) own'.
Proof.
  intros H Hl Hw Hc E b. rewrite E.
  destruct (Nat.eqb_spec b (length h)) as [->|Hne].
  - rewrite lookup_last, Hl. specialize (H (length h)).
    replace (nth_error h (length h)) with (@None buf) in H by (symmetry; apply nth_error_None; lia).
    cbn [one]. intuition lia.
  - rewrite N.add_0_r. specialize (H b).
    destruct (lt_dec b (length h)) as [Hlt|Hge].
    + rewrite nth_error_app1 by exact Hlt. exact H.
    + assert (nth_error (h ++ [x]) b = None) as ->.
      { apply nth_error_None. rewrite app_length. cbn [length]. lia. }
      assert (nth_error h b = None) as E2 by (apply nth_error_None; lia). rewrite E2 in H. exact H.
Qed.

Lemma MI_upd h own own' b x x' :
  MI h own -> nth_error h b = Some x ->
  (if live x' then buf_wf x' /\ count x' = own' b /\ 1 <= own' b else own' b = 0) ->
  (forall b', b' <> b -> own' b' = own b') ->
  MI (upd h b x') own'.
Proof.
  intros H Hb Hx E b'. destruct (Nat.eq_dec b' b) as [->|Hne].
  - rewrite nth_error_upd_eq by (eapply nth_error_lt; eauto). exact Hx.
  - rewrite nth_error_upd_ne by exact Hne. rewrite (E b' Hne). apply H.
Qed.

Definition handle_ok (h : list buf) (st : list (list N)) (r : repr) : Prop :=
  match r with
  | Inline bs => length bs = 16%nat /\ Valid (inline_text bs) /\ nthN bs 15 < HEAP_MARKER
  | Heap b l => exists x, nth_error h b = Some x /\ live x = true /\ l <= cap x /\ len (data x) = cap x
                          /\ Valid (firstn (N.to_nat l) (data x))
  | Static s l => exists t, nth_error st s = Some t /\ l <= len t /\ len t <= STATIC_MAX_LENGTH
                            /\ Valid (firstn (N.to_nat l) t)
  end.

Lemma heap_handle_inv {h st own b l} :
  MI h own -> handle_ok h st (Heap b l) ->
  exists x, nth_error h b = Some x /\ live x = true /\ buf_wf x /\ count x = own b /\ 1 <= own b
            /\ l <= cap x /\ Valid (firstn (N.to_nat l) (data x)).
Proof.
  intros HM (x & Hb & Hl & Hlc & _ & Hv). destruct (MI_lookup HM Hb Hl) as (Hw & Hc & Ho).
  exists x. auto 10.
Qed.

(* what stays the same about a buffer that other handles still read *)
Definition buf_same (x x' : buf) : Prop :=
  live x' = live x /\ asize x' = asize x /\ cap x' = cap x /\ data x' = data x.
Lemma buf_same_refl x : buf_same x x. Proof. repeat split. Qed.
Lemma buf_same_trans x y z : buf_same x y -> buf_same y z -> buf_same x z.
Proof. unfold buf_same. intuition congruence. Qed.

Definition frame (h h' : list buf) (keep : bufid -> Prop) : Prop :=
  forall b x, keep b -> nth_error h b = Some x -> live x = true ->
              exists x', nth_error h' b = Some x' /\ buf_same x x'.
Lemma frame_refl h keep : frame h h keep.
Proof. intros b x _ Hb _. exists x. split; [exact Hb|apply buf_same_refl]. Qed.
Lemma frame_trans h1 h2 h3 keep : frame h1 h2 keep -> frame h2 h3 keep -> frame h1 h3 keep.
Proof.
  intros F1 F2 b x Hk Hb Hl. destruct (F1 b x Hk Hb Hl) as (y & Hy & S1).
  assert (live y = true) as Hly by (destruct S1 as (E & _); congruence).
  destruct (F2 b y Hk Hy Hly) as (z & Hz & S2). exists z. split; [exact Hz|eapply buf_same_trans; eauto].
Qed.
Lemma frame_weaken h h' (keep keep' : bufid -> Prop) :
  frame h h' keep -> (forall b, keep' b -> keep b) -> frame h h' keep'.
Proof. intros F W b x Hk. apply F. apply W. exact Hk. Qed.
Lemma frame_app h x keep : frame h (h ++ [x]) keep.
Proof. intros b y _ Hb _. exists y. split; [apply nth_error_app_l; exact Hb|apply buf_same_refl]. Qed.
Lemma frame_upd h b x x' (keep : bufid -> Prop) :
  nth_error h b = Some x -> (keep b -> buf_same x x') -> frame h (upd h b x') keep.
Proof.
  intros Hb S b' y Hk Hy _. destruct (Nat.eq_dec b' b) as [->|Hne].
  - exists x'. split; [apply nth_error_upd_eq; eapply nth_error_lt; eauto|]. rewrite Hb in Hy. injection Hy as <-. auto.
  - exists y. split; [rewrite nth_error_upd_ne by exact Hne; exact Hy|apply buf_same_refl].
Qed.

(* same environment: no command changes the statics, the allocator oracle or what foreign owners add to a count *)
Definition same_env (m m' : mem) : Prop := statics m' = statics m /\ orc m' = orc m /\ ext m' = ext m.
Lemma same_env_refl m : same_env m m. Proof. repeat split. Qed.
Lemma same_env_trans m1 m2 m3 : same_env m1 m2 -> same_env m2 m3 -> same_env m1 m3.
Proof. unfold same_env. intuition congruence. Qed.
Lemma same_env_quiet m m' : same_env m m' -> quiet m -> quiet m'.
Proof. intros (_ & _ & E) Q k. rewrite E. apply Q. Qed.
Lemma same_env_quiet_rev m m' : same_env m m' -> quiet m' -> quiet m.
Proof. intros (_ & _ & E) Q k. rewrite <- E. apply Q. Qed.
#[export] Hint Resolve same_env_refl : core.

(* what an event that only reads (or fences) leaves: a longer log *)
Definition read_only (m m' : mem) : Prop := same_env m m' /\ heap m' = heap m /\ nreq m' = nreq m.
Lemma read_only_refl m : read_only m m. Proof. repeat split. Qed.
Lemma read_only_trans m1 m2 m3 : read_only m1 m2 -> read_only m2 m3 -> read_only m1 m3.
Proof. intros (E1 & H1 & N1) (E2 & H2 & N2). split; [eapply same_env_trans; eauto|split; congruence]. Qed.
#[export] Hint Resolve read_only_refl : core.

(* One rule per event: what it returns and, by equations, the memory it leaves (the log is never mentioned). *)
Definition with_data (x : buf) (d : list N) : buf :=
  {| live := live x; asize := asize x; count := count x; cap := cap x; data := d |}.
Definition resize (d : list N) (n : nat) : list N := firstn n d ++ repeat POISON (n - length d).

Lemma in_bounds_le {off n} {d : list N} : off + n <= len d -> in_bounds off n d = true.
Proof. apply N.leb_le. Qed.

Section Events.
  Variables (m : mem) (b : bufid) (x : buf).
  Hypothesis Hb : nth_error (heap m) b = Some x.
  Hypothesis Hl : live x = true.

  Lemma hdr_cap_wp (Q : out N -> mem -> Prop) : Q (OVal (cap x)) m -> wp (hdr_cap b) Q m.
  Proof. intros HQ. unfold wp. cbn [hdr_cap run]. rewrite Hb, Hl. exact HQ. Qed.
  Lemma hdr_init_wp c (Q : out unit -> mem -> Prop) :
    (forall m', same_env m m' -> nreq m' = nreq m ->
                heap m' = upd (heap m) b {| live := true; asize := asize x; count := 1; cap := c; data := data x |} ->
                Q (OVal tt) m') ->
    wp (hdr_init b c) Q m.
  Proof. intros HQ. unfold wp. cbn [hdr_init run]. rewrite Hb, Hl. apply HQ; repeat split. Qed.
  Lemma load_wp o (Q : out N -> mem -> Prop) :
    (forall m', read_only m m' -> Q (OVal (count x + ext_now m)) m') -> wp (load b o) Q m.
  Proof. intros HQ. unfold wp. cbn [load run]. rewrite Hb, Hl. apply HQ. repeat split. Qed.
  Lemma rmw_wp (add : bool) o (Q : out N -> mem -> Prop) :
    (forall m', same_env m m' -> nreq m' = nreq m ->
                heap m' = upd (heap m) b {| live := rmw_live add (count x) (ext_now m); asize := asize x;
                                            count := if add then count x + 1 else count x - 1;
                                            cap := cap x; data := data x |} ->
                Q (OVal (count x + ext_now m)) m') ->
    wp (rmw b add o) Q m.
  Proof. intros HQ. unfold wp. cbn [rmw run]. rewrite Hb, Hl. apply HQ; repeat split. Qed.
  Lemma dealloc_wp n (Q : out unit -> mem -> Prop) :
    n = asize x ->
    (forall m', same_env m m' -> nreq m' = nreq m ->
                heap m' = upd (heap m) b {| live := false; asize := asize x; count := count x; cap := cap x; data := data x |} ->
                Q (OVal tt) m') ->
    wp (dealloc b n) Q m.
  Proof.
    intros -> HQ. unfold wp. cbn [dealloc run]. rewrite Hb, Hl, N.eqb_refl. apply HQ; repeat split.
  Qed.
  Lemma realloc_wp old new (Q : out bool -> mem -> Prop) :
    old = asize x ->
    (forall m', same_env m m' -> nreq m' = nreq m + 1 -> heap m' = heap m -> Q (OVal false) m') ->
    (forall m', same_env m m' -> nreq m' = nreq m + 1 ->
                heap m' = upd (heap m) b {| live := true; asize := new; count := count x; cap := cap x;
                                            data := resize (data x) (N.to_nat (new - HDR)) |} ->
                Q (OVal true) m') ->
    wp (realloc b old new) Q m.
  Proof.
    intros -> H1 H2. unfold wp. cbn [realloc run]. rewrite Hb, Hl, N.eqb_refl.
    destruct (orc m (nreq m) new); [apply H1|apply H2]; repeat split.
  Qed.

  (* the uniqueness test: [true] only if this world holds exactly one reference and nobody else holds any; in a
     quiet world it is exactly [count x =? 1] *)
  Lemma is_unique_wp (Q : out bool -> mem -> Prop) :
    1 <= count x ->
    (forall m' u, same_env m m' -> heap m' = heap m -> nreq m' = nreq m ->
                  (u = true -> count x = 1) -> (quiet m -> u = (count x =? 1)) -> Q (OVal u) m') ->
    wp (heap_is_unique b) Q m.
  Proof.
    intros Hc1 HQ. unfold heap_is_unique. apply wp_seq. apply load_wp. intros m' (He & Hh & Hn).
    apply wp_ret. apply HQ; [exact He|exact Hh|exact Hn| |].
    - intros E. lia.
    - intros Hq. unfold ext_now. rewrite Hq, N.add_0_r. reflexivity.
  Qed.
  Lemma read_heap_wp off n (Q : out (list N) -> mem -> Prop) :
    off + n <= len (data x) ->
    (forall m', read_only m m' -> Q (OVal (slice (data x) (N.to_nat off) (N.to_nat n))) m') ->
    wp (read (PHeap b) off n) Q m.
  Proof.
    intros Hin HQ. unfold wp. cbn [read run]. rewrite Hb, Hl, (in_bounds_le Hin).
    apply HQ. repeat split.
  Qed.
  Lemma write_heap_wp off bs (Q : out unit -> mem -> Prop) :
    off + len bs <= len (data x) ->
    (forall m', same_env m m' -> heap m' = upd (heap m) b (with_data x (write_range (data x) (N.to_nat off) bs)) ->
                nreq m' = nreq m -> Q (OVal tt) m') ->
    wp (write (PHeap b) off bs) Q m.
  Proof.
    intros Hin HQ. unfold wp. cbn [write run]. rewrite Hb, Hl, (in_bounds_le Hin).
    apply HQ; [repeat split; reflexivity| |reflexivity]. unfold with_data. rewrite Hl. reflexivity.
  Qed.
  Lemma move_heap_wp src dst n (Q : out unit -> mem -> Prop) :
    src + n <= len (data x) -> dst + n <= len (data x) ->
    (forall m', same_env m m' ->
                heap m' = upd (heap m) b (with_data x (move_range (data x) (N.to_nat src) (N.to_nat dst) (N.to_nat n))) ->
                nreq m' = nreq m -> Q (OVal tt) m') ->
    wp (move (PHeap b) src dst n) Q m.
  Proof.
    intros H1 H2 HQ. unfold wp. cbn [move run]. rewrite Hb, Hl, (in_bounds_le H1), (in_bounds_le H2).
    apply HQ; [repeat split; reflexivity| |reflexivity]. unfold with_data. rewrite Hl. reflexivity.
  Qed.
End Events.

Definition fresh_buf (n : N) : buf :=
  {| live := true; asize := n; count := 0; cap := 0; data := repeat POISON (N.to_nat (n - HDR)) |}.
Lemma alloc_wp n (Q : out (option bufid) -> mem -> Prop) m :
  (forall m', same_env m m' -> nreq m' = nreq m + 1 -> heap m' = heap m -> Q (OVal None) m') ->
  (forall m', same_env m m' -> nreq m' = nreq m + 1 -> heap m' = heap m ++ [fresh_buf n] ->
              Q (OVal (Some (length (heap m)))) m') ->
  wp (alloc n) Q m.
Proof.
  intros H1 H2. unfold wp. cbn [alloc run]. destruct (orc m (nreq m) n); [apply H1|apply H2]; repeat split.
Qed.
Lemma fence_wp o (Q : out unit -> mem -> Prop) m : (forall m', read_only m m' -> Q (OVal tt) m') -> wp (fence o) Q m.
Proof. intros HQ. apply HQ. repeat split. Qed.
Lemma read_static_wp m s t off n (Q : out (list N) -> mem -> Prop) :
  nth_error (statics m) s = Some t -> off + n <= len t ->
  (forall m', read_only m m' -> Q (OVal (slice t (N.to_nat off) (N.to_nat n))) m') ->
  wp (read (PStatic s) off n) Q m.
Proof.
  intros Hs Hin HQ. unfold wp. cbn [read run]. rewrite Hs, (in_bounds_le Hin). apply HQ. repeat split.
Qed.

Lemma layout_ok c : c <= MAX_LEN -> layout_from_capacity c = Some (HDR + c).
Proof.
  intros H. unfold layout_from_capacity, checked_add.
  assert (HDR + c <= USIZE_MAX) as E1 by (unfold HDR, MAX_LEN, USIZE_MAX in *; lia).
  apply N.leb_le in E1. rewrite E1.
  assert (HDR + c <= ISIZE_MAX - 7) as E2 by (unfold HDR, MAX_LEN, ISIZE_MAX in *; lia).
  apply N.leb_le in E2. rewrite E2. reflexivity.
Qed.
Lemma capacity_new_spec c : capacity_new c = if c <=? MAX_LEN then Some c else None.
Proof.
  unfold capacity_new, cond_capacity_too_big.
  destruct (N.ltb_spec MAX_LEN c), (N.leb_spec c MAX_LEN); try reflexivity; lia.
Qed.
Lemma text_len_new_spec c : text_len_new c = if c <=? MAX_LEN then Some c else None.
Proof. apply capacity_new_spec. Qed.
Lemma max_len_usize : MAX_LEN <= USIZE_MAX.
Proof. unfold MAX_LEN, USIZE_MAX. lia. Qed.

Definition poison (n : N) : list N := repeat POISON (N.to_nat n).
Lemma len_poison n : len (poison n) = n.
Proof. unfold poison. rewrite len_repeat. lia. Qed.

Definition filled (c : N) (t : list N) : list N := t ++ poison (c - len t).
Lemma len_filled c t : len t <= c -> len (filled c t) = c.
Proof. unfold filled. rewrite len_app, len_poison. lia. Qed.
Lemma firstn_filled c t : firstn (N.to_nat (len t)) (filled c t) = t.
Proof. unfold filled. rewrite len_to_nat. apply firstn_app_exact. Qed.
Lemma filled_nil c : filled c [] = poison c.
Proof. unfold filled. rewrite N.sub_0_r. reflexivity. Qed.
Lemma write_poison c t : len t <= c -> write_range (poison c) (N.to_nat 0) t = filled c t.
Proof.
  intros H. unfold write_range, filled, poison. change (N.to_nat 0) with 0%nat. cbn [firstn app Nat.add]. f_equal.
  rewrite skipn_repeat. f_equal. unfold len in *. lia.
Qed.

Lemma allocate_ptr_wp c (Q : out (option bufid) -> mem -> Prop) m :
  c <= MAX_LEN ->
  (forall m', same_env m m' -> heap m' = heap m -> Q (OVal None) m') ->
  (forall m', same_env m m' -> heap m' = heap m ++ [mkbuf c (filled c [])] -> nreq m' = nreq m + 1 ->
              Q (OVal (Some (length (heap m)))) m') ->
  wp (allocate_ptr c) Q m.
Proof.
  intros Hc Hf Hs. unfold allocate_ptr. rewrite (layout_ok c Hc).
  apply wp_seq. apply alloc_wp.
  - intros m1 He1 _ Hh1. apply wp_ret. apply Hf; assumption.
  - intros m1 He1 Hn1 Hh1. apply wp_seq.
    eapply hdr_init_wp; [rewrite Hh1; apply lookup_last|reflexivity|]. intros m2 He2 Hn2 Hh2. apply wp_ret.
    apply Hs; [eapply same_env_trans; eauto| |congruence].
    rewrite Hh2, Hh1, upd_app_r, filled_nil. unfold mkbuf, fresh_buf, poison.
    replace (HDR + c - HDR) with c by lia. reflexivity.
Qed.

Lemma fill_fresh_wp h c t (Q : out unit -> mem -> Prop) m :
  len t <= c -> heap m = h ++ [mkbuf c (filled c [])] ->
  (forall m', same_env m m' -> heap m' = h ++ [mkbuf c (filled c t)] -> nreq m' = nreq m -> Q (OVal tt) m') ->
  wp (write (PHeap (length h)) 0 t) Q m.
Proof.
  intros Ht Hh HQ. eapply write_heap_wp; [rewrite Hh; apply lookup_last|reflexivity| |].
  - cbn [mkbuf data]. rewrite filled_nil, len_poison. lia.
  - intros m' He Hh' Hn. apply HQ; [exact He| |exact Hn].
    rewrite Hh', Hh, upd_app_r. unfold with_data, mkbuf. cbn [live asize count cap data].
    rewrite filled_nil, write_poison by exact Ht. reflexivity.
Qed.

(* [A] fails leaving the heap as it is, or makes one request and returns the handle of a new buffer of capacity c
   that holds t: the shape of HeapBuffer::new / with_capacity / with_additional / with_exact_capacity *)
Definition allocates (A : cmd (option repr)) (c : N) (t : list N) : Prop :=
  forall (Q : out (option repr) -> mem -> Prop) m,
    (forall m', same_env m m' -> heap m' = heap m -> Q (OVal None) m') ->
    (forall m', same_env m m' -> heap m' = heap m ++ [mkbuf c (filled c t)] -> nreq m' = nreq m + 1 -> c <= MAX_LEN ->
                Q (OVal (Some (Heap (length (heap m)) (len t)))) m') ->
    wp A Q m.

Lemma alloc_copy_allocates c t :
  len t <= c ->
  allocates (match text_len_new (len t) with
             | None => Ret None
             | Some l =>
                 match capacity_new c with
                 | None => Ret None
                 | Some c' =>
                     ob <- allocate_ptr c' ;;
                     match ob with
                     | None => Ret None
                     | Some b => write (PHeap b) 0 t ;;; Ret (Some (Heap b l))
                     end
                 end
             end) c t.
Proof.
  intros Ht Q m Hf Hs. rewrite text_len_new_spec, capacity_new_spec.
  destruct (N.leb_spec c MAX_LEN) as [Hc|Hc].
  2:{ destruct (len t <=? MAX_LEN); apply wp_ret; apply Hf; auto. }
  replace (len t <=? MAX_LEN) with true by (symmetry; apply N.leb_le; lia).
  apply wp_seq. apply allocate_ptr_wp; [exact Hc| |].
  - intros m1 He1 Hh1. apply wp_ret. apply Hf; assumption.
  - intros m1 He1 Hh1 Hn1. apply wp_seq. eapply fill_fresh_wp; [exact Ht|exact Hh1|]. intros m2 He2 Hh2 Hn2.
    apply wp_ret. apply Hs; [eapply same_env_trans; eauto|exact Hh2|congruence|exact Hc].
Qed.
Lemma heap_new_allocates t : allocates (heap_new t) (len t) t.
Proof. apply alloc_copy_allocates. lia. Qed.
Lemma heap_with_additional_allocates t add :
  len t <= USIZE_MAX -> allocates (heap_with_additional t add) (amortized_growth (len t) add) t.
Proof. intros Hu. apply alloc_copy_allocates. apply growth_ge_len. exact Hu. Qed.

Lemma heap_with_capacity_allocates c : allocates (heap_with_capacity c) c [].
Proof.
  intros Q m Hf Hs. unfold heap_with_capacity. rewrite text_len_new_spec, capacity_new_spec.
  destruct (N.leb_spec c MAX_LEN) as [Hc|Hc]; [|apply wp_ret; apply Hf; auto].
  apply wp_seq. apply allocate_ptr_wp; [exact Hc| |].
  - intros m1 He1 Hh1. apply wp_ret. apply Hf; assumption.
  - intros m1 He1 Hh1 Hn1. apply wp_ret. apply Hs; assumption.
Qed.

Lemma heap_set_len_wp b n (Q : out repr -> mem -> Prop) m :
  n <= MAX_LEN -> Q (OVal (Heap b n)) m -> wp (heap_set_len b n) Q m.
Proof.
  intros Hn HQ. unfold heap_set_len. rewrite text_len_new_spec. apply N.leb_le in Hn. rewrite Hn.
  apply wp_ret. exact HQ.
Qed.

Lemma heap_with_exact_capacity_allocates t c : len t <= c -> allocates (heap_with_exact_capacity t c) c t.
Proof.
  intros Ht Q m Hf Hs. unfold heap_with_exact_capacity. apply wp_seq. apply heap_with_capacity_allocates.
  - intros m1 He1 Hh1. apply wp_ret. apply Hf; assumption.
  - intros m1 He1 Hh1 Hn1 Hc. apply wp_seq. eapply fill_fresh_wp; [exact Ht|exact Hh1|]. intros m2 He2 Hh2 Hn2.
    apply wp_seq. apply heap_set_len_wp; [lia|]. apply wp_ret.
    apply Hs; [eapply same_env_trans; eauto|exact Hh2|congruence|exact Hc].
Qed.

Definition resized (x : buf) (nc : N) : buf :=
  {| live := true; asize := HDR + nc; count := 1; cap := nc; data := resize (data x) (N.to_nat nc) |}.
Lemma len_resize d n : len (resize d n) = N.of_nat n.
Proof. unfold resize. rewrite len_app, len_firstn, len_repeat. unfold len. lia. Qed.

Lemma heap_realloc_wp b x nc (Q : out bool -> mem -> Prop) m :
  nth_error (heap m) b = Some x -> live x = true -> buf_wf x ->
  (forall m', same_env m m' -> heap m' = heap m -> Q (OVal false) m') ->
  (forall m', same_env m m' -> heap m' = upd (heap m) b (resized x nc) -> nreq m' = nreq m + 1 -> nc <= MAX_LEN ->
              Q (OVal true) m') ->
  wp (heap_realloc b nc) Q m.
Proof.
  intros Hb Hl (Wa & Wd & Wc) Hf Hs. unfold heap_realloc. rewrite capacity_new_spec.
  destruct (N.leb_spec nc MAX_LEN) as [Hle|Hgt]; [|apply wp_ret; apply Hf; auto].
  apply wp_seq. eapply hdr_cap_wp; [exact Hb|exact Hl|].
  rewrite (layout_ok (cap x) Wc). apply wp_seq. eapply realloc_wp; [exact Hb|exact Hl|symmetry; exact Wa| |].
  - intros m1 He1 _ Hh1. apply wp_ret. apply Hf; assumption.
  - intros m1 He1 Hn1 Hh1. apply wp_seq.
    eapply hdr_init_wp; [rewrite Hh1; apply nth_error_upd_eq; eapply nth_error_lt; exact Hb|reflexivity|].
    intros m2 He2 Hn2 Hh2. apply wp_ret. apply Hs; [eapply same_env_trans; eauto| |congruence|exact Hle].
    rewrite Hh2, Hh1, upd_upd. rewrite layout_size_no_wrap by exact Hle.
    replace (HDR + nc - HDR) with nc by lia. reflexivity.
Qed.

Definition released (x : buf) : buf :=
  if count x =? 1
  then {| live := false; asize := asize x; count := 0; cap := cap x; data := data x |}
  else {| live := true; asize := asize x; count := count x - 1; cap := cap x; data := data x |}.

Lemma replace_inner_heap_wp b l other x (Q : out repr -> mem -> Prop) m :
  nth_error (heap m) b = Some x -> live x = true -> buf_wf x -> 1 <= count x ->
  (forall m', same_env m m' -> heap m' = upd (heap m) b (released x) -> nreq m' = nreq m -> Q (OVal other) m') ->
  wp (replace_inner (Heap b l) other) Q m.
Proof.
  intros Hb Hl (Wa & Wd & Wc) Hc1 HQ. unfold replace_inner. apply wp_seq.
  eapply rmw_wp; [exact Hb|exact Hl|]. intros m1 He1 Hn1 Hh1.
  assert (Hlt : (b < length (heap m))%nat) by (eapply nth_error_lt; eauto).
  set (e := ext_now m) in *. unfold rmw_live in Hh1.
  destruct (N.eqb_spec (count x + e) 1) as [E|E].
  - (* read 1: ours was the last reference anywhere *)
    assert (E1 : count x = 1) by lia. assert (E0 : e = 0) by lia.
    rewrite E1, E0 in Hh1.
    apply wp_seq. apply fence_wp. intros m2 (He2 & Hh2 & Hn2).
    assert (Hb2 : nth_error (heap m2) b = Some {| live := true; asize := asize x; count := 1 - 1; cap := cap x; data := data x |}).
    { rewrite Hh2, Hh1. apply nth_error_upd_eq. exact Hlt. }
    apply wp_seq. unfold heap_dealloc. apply wp_seq. eapply hdr_cap_wp; [exact Hb2|reflexivity|]. cbn [cap].
    rewrite (layout_ok (cap x) Wc).
    eapply dealloc_wp; [exact Hb2|reflexivity|symmetry; exact Wa|]. intros m3 He3 Hn3 Hh3. apply wp_ret.
    apply HQ; [eauto using same_env_trans| |congruence].
    rewrite Hh3, Hh2, Hh1, upd_upd. unfold released. rewrite E1. reflexivity.
  - apply wp_ret. apply HQ; [exact He1| |exact Hn1]. rewrite Hh1. unfold released.
    destruct (N.eqb_spec (count x) 1) as [E1|E1]; [|reflexivity].
    (* our last reference, but foreign ones remain: the buffer leaves this world *)
    assert (E0 : e <> 0) by lia. apply N.eqb_neq in E0. rewrite E0, E1. reflexivity.
Qed.
