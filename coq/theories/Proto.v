(* Proto.v — thread-local typing of the command trees against the reference-count protocol of conc/Mach.v.
   A thread's ghost state says, per buffer, how many references it holds, whether it has observed the count 1
   while holding one (exclusive) and whether its own decrement took the count to zero (must free).  [okc c g Q]:
   whatever values the shared memory returns (demonic), every event of [c] has the ghost precondition that
   Mach.step demands of the corresponding action (read: holds a reference; write / realloc / header write:
   exclusive; decrement: holds a reference; dealloc: must-free), and [Q] holds of the result and final ghost.

   Every event has one rule: [ok_write], [ok_hdr_cap], [ok_hdr_init] for the events several functions perform, and
   for the others the typing of the one function that performs them ([ok_allocate_ptr]: alloc, [ok_heap_realloc]:
   realloc, [ok_is_unique]: load, [ok_clone_any]: increment, [ok_replace_inner]: decrement, fence, dealloc,
   [ok_as_bytes_any]: read); rules are chained with [okc_bind] / [okc_seq]. *)
From Coq Require Import Lia Arith.
From LS Require Import Base Utf8 Cmd Impl.
From LSGen Require Import GenSrc.
Open Scope N_scope.

Record ghost := { g_refs : bufid -> nat; g_excl : bufid -> bool; g_free : bufid -> bool;
                  g_fen : bool (* an acquire fence has been executed since this thread's last RMW *);
                  g_bor : bufid -> bool (* the thread reads b through a &handle lent to it by another thread *) }.
Definition acq (o : ord) : bool := match o with Acquire | AcqRel | SeqCst => true | _ => false end.
Definition rel (o : ord) : bool := match o with Release | AcqRel | SeqCst => true | _ => false end.
Definition setf {A} (f : bufid -> A) (b : bufid) (x : A) : bufid -> A := fun b' => if Nat.eqb b' b then x else f b'.

Definition can_read (g : ghost) (b : bufid) : Prop :=
  (0 < g_refs g b)%nat \/ g_excl g b = true \/ (g_free g b = true /\ g_fen g = true) \/ g_bor g b = true.

Fixpoint okc {R} (c : cmd R) (g : ghost) (Q : R -> ghost -> Prop) : Prop :=
  match c with
  | Ret r => Q r g
  | Unreachable => True          (* excluded by the sequential theorem (C03_no_ub) *)
  | Alloc _ k =>
      okc (k None) g Q
      /\ forall b, g_refs g b = 0%nat -> g_excl g b = false -> g_free g b = false ->
           okc (k (Some b)) {| g_refs := setf (g_refs g) b 1%nat; g_excl := setf (g_excl g) b true; g_free := g_free g; g_fen := g_fen g; g_bor := g_bor g |} Q
  | Realloc b _ _ k => g_excl g b = true /\ forall ok, okc (k ok) g Q
  | Dealloc b _ k => g_free g b = true /\ g_fen g = true
                     /\ okc k {| g_refs := g_refs g; g_excl := g_excl g; g_free := setf (g_free g) b false; g_fen := g_fen g; g_bor := g_bor g |} Q
  | HdrInit b _ k => g_excl g b = true /\ okc k g Q
  | HdrCap b k => can_read g b /\ forall v, okc (k v) g Q
  | Rmw b true _ k =>
      ((0 < g_refs g b)%nat \/ g_bor g b = true)      (* clone: through an own handle, or through a borrowed one *)
      /\ forall v, okc (k v) {| g_refs := setf (g_refs g) b (S (g_refs g b)); g_excl := setf (g_excl g) b false; g_free := g_free g; g_fen := false; g_bor := g_bor g |} Q
  | Rmw b false o k =>
      (0 < g_refs g b)%nat /\ g_free g b = false /\ rel o = true
      /\ forall v, okc (k v) {| g_refs := setf (g_refs g) b (g_refs g b - 1)%nat; g_excl := setf (g_excl g) b false;
                                g_free := setf (g_free g) b (v =? 1); g_fen := false; g_bor := g_bor g |} Q
  | Load b o k =>
      (0 < g_refs g b)%nat /\ acq o = true
      /\ forall v, okc (k v) {| g_refs := g_refs g; g_excl := setf (g_excl g) b (g_excl g b || (v =? 1)); g_free := g_free g; g_fen := g_fen g; g_bor := g_bor g |} Q
  | Fence o k => okc k {| g_refs := g_refs g; g_excl := g_excl g; g_free := g_free g; g_fen := g_fen g || acq o; g_bor := g_bor g |} Q
  | Read (PHeap b) _ _ k => can_read g b /\ forall bs, okc (k bs) g Q
  | Read (PStatic _) _ _ k => forall bs, okc (k bs) g Q
  | Write (PHeap b) _ _ k => g_excl g b = true /\ okc k g Q
  | Write (PStatic _) _ _ _ => False
  | Move (PHeap b) _ _ _ k => g_excl g b = true /\ okc k g Q
  | Move (PStatic _) _ _ _ _ => False
  end.

Lemma setf_eq {A} (f : bufid -> A) b x : setf f b x b = x.
Proof. unfold setf. rewrite Nat.eqb_refl. reflexivity. Qed.
Lemma setf_ne {A} (f : bufid -> A) b b' x : b <> b' -> setf f b x b' = f b'.
Proof. unfold setf. intros H. apply not_eq_sym, Nat.eqb_neq in H. rewrite H. reflexivity. Qed.

(* in both inductions every case keeps the event's side conditions and continues by the induction hypothesis *)
Lemma okc_bind {A B} (c : cmd A) (f : A -> cmd B) g (Q : B -> ghost -> Prop) :
  okc c g (fun a g' => okc (f a) g' Q) -> okc (bind c f) g Q.
Proof.
  revert g; induction c as [r| |n k IH|b o n k IH|b n k IH|b c k IH|b k IH|b [|] o k IH|b o k IH|o k IH
                           |[b|s] off n k IH|[b|s] off bs k IH|[b|s] x d n k IH]; intros g H; cbn [bind okc] in *; auto.
  all: repeat split; try apply H; intros; apply IH; apply H; assumption.
Qed.
(* no event changes who borrows: the postcondition may assume it *)
Lemma okc_mono {R} (c : cmd R) g (Q Q' : R -> ghost -> Prop) :
  okc c g Q -> (forall r g', g_bor g' = g_bor g -> Q r g' -> Q' r g') -> okc c g Q'.
Proof.
  revert g; induction c as [r| |n k IH|b o n k IH|b n k IH|b c k IH|b k IH|b [|] o k IH|b o k IH|o k IH
                           |[b|s] off n k IH|[b|s] off bs k IH|[b|s] x d n k IH]; intros g H HQ; cbn [okc] in *; auto.
  all: repeat split; try apply H; intros; eapply IH; try exact HQ; apply H; assumption.
Qed.
Lemma okc_seq {A B} (c : cmd A) (f : A -> cmd B) g (P : A -> ghost -> Prop) (Q : B -> ghost -> Prop) :
  okc c g P -> (forall a g', P a g' -> okc (f a) g' Q) -> okc (bind c f) g Q.
Proof. intros H HQ. apply okc_bind. eapply okc_mono; [exact H|]. intros a g' _. apply HQ. Qed.

Lemma ok_write b off bs g (Q : unit -> ghost -> Prop) : g_excl g b = true -> Q tt g -> okc (write (PHeap b) off bs) g Q.
Proof. intros He HQ. exact (conj He HQ). Qed.
Lemma ok_hdr_init b c g (Q : unit -> ghost -> Prop) : g_excl g b = true -> Q tt g -> okc (hdr_init b c) g Q.
Proof. intros He HQ. exact (conj He HQ). Qed.
Lemma ok_hdr_cap b g (Q : N -> ghost -> Prop) : can_read g b -> (forall c, Q c g) -> okc (hdr_cap b) g Q.
Proof. intros Hr HQ. exact (conj Hr HQ). Qed.

Definition holds (g : ghost) (r : repr) : Prop :=
  match r with Heap b _ => (0 < g_refs g b)%nat /\ g_free g b = false | _ => True end.
(* the thread owes nothing: no pending dealloc *)
Definition settled (g : ghost) : Prop := forall b, g_free g b = false.
Definition borrows (g : ghost) (r : repr) : Prop :=
  match r with Heap b _ => g_bor g b = true /\ g_free g b = false | _ => True end.
Definition holds_excl (g : ghost) (r : repr) : Prop :=
  match r with Heap b _ => (0 < g_refs g b)%nat /\ g_free g b = false /\ g_excl g b = true | Static _ _ => False | Inline _ => True end.

(* reference accounting: an operation changes the thread's count of a buffer exactly by the change of its handle *)
Definition nm (r : repr) (b : bufid) : nat := match r with Heap b' _ => if Nat.eqb b' b then 1%nat else 0%nat | _ => 0%nat end.
Definition cons (g : ghost) (r : repr) (g' : ghost) (r' : repr) : Prop :=
  forall b, (g_refs g' b + nm r b = g_refs g b + nm r' b)%nat.

Lemma refs_one_more (f : bufid -> nat) b l x : setf f b (S (f b)) x = (f x + nm (Heap b l) x)%nat.
Proof. unfold setf. cbn [nm]. rewrite (Nat.eqb_sym x b). destruct (Nat.eqb_spec b x) as [->|]; lia. Qed.
Lemma holds_nm0 g r b : holds g r -> g_refs g b = 0%nat -> nm r b = 0%nat.
Proof. destruct r as [d|b' l|s l]; cbn [holds nm]; auto. intros (H & _) H0. destruct (Nat.eqb_spec b' b) as [->|]; [lia|reflexivity]. Qed.

Lemma ok_as_bytes_any r g (Q : list N -> ghost -> Prop) :
  holds g r \/ borrows g r -> (forall t, Q t g) -> okc (as_bytes r) g Q.
Proof.
  intros H HQ. destruct r as [bs|b l|s l]; cbn [as_bytes]; [apply HQ| |exact HQ].
  split; [|exact HQ]. destruct H as [H|H]; [left|right; right; right]; apply H.
Qed.
Lemma ok_as_bytes r g (Q : list N -> ghost -> Prop) : holds g r -> (forall t, Q t g) -> okc (as_bytes r) g Q.
Proof. intros H. apply ok_as_bytes_any. left. exact H. Qed.
Lemma ok_as_bytes_borrowed r g (Q : list N -> ghost -> Prop) :
  borrows g r -> (forall t, Q t g) -> okc (as_bytes r) g Q.
Proof. intros H. apply ok_as_bytes_any. right. exact H. Qed.

(* clone: one relaxed increment, no other access; the clone is the thread's own handle, accounted for exactly *)
Lemma ok_clone_any r g (Q : repr -> ghost -> Prop) :
  holds g r \/ borrows g r ->
  (forall g', holds g' r -> g_free g' = g_free g -> g_bor g' = g_bor g -> (forall x, g_refs g' x = (g_refs g x + nm r x)%nat) -> Q r g') ->
  okc (make_shallow_clone r) g Q.
Proof.
  intros H HQ. destruct r as [bs|b l|s l]; cbn [make_shallow_clone].
  1, 3: apply HQ; [exact I|reflexivity|reflexivity|intros x; cbn [nm]; lia].
  apply okc_bind. split; [destruct H as [H|H]; [left|right]; apply H|]. intros v.
  apply HQ; [|reflexivity|reflexivity|intros x; apply refs_one_more].
  cbn [holds g_refs g_free]. rewrite setf_eq. split; [lia|destruct H as [H|H]; apply H].
Qed.
Lemma ok_clone r g : holds g r -> okc (make_shallow_clone r) g (fun r' g' => r' = r /\ holds g' r).
Proof. intros H. apply ok_clone_any; [left; exact H|]. intros g' H' _ _ _. exact (conj eq_refl H'). Qed.
Lemma ok_clone_borrowed r g :
  borrows g r -> settled g ->
  okc (make_shallow_clone r) g (fun r' g' => r' = r /\ holds g' r /\ settled g'
                                             /\ forall x, g_refs g' x = (g_refs g x + nm r x)%nat).
Proof.
  intros H Hs. apply ok_clone_any; [right; exact H|]. intros g' H' Ef _ Hn.
  split; [reflexivity|]. split; [exact H'|]. split; [intros b; rewrite Ef; apply Hs|exact Hn].
Qed.

(* replace_inner (drop / reassign): one release decrement; the thread that read 1 fences, reads the capacity and frees;
   afterwards it holds one reference less to that buffer and owes nothing *)
Definition same_at (g g' : ghost) (b : bufid) : Prop :=
  g_refs g' b = g_refs g b /\ g_excl g' b = g_excl g b /\ g_free g' b = g_free g b.
Lemma ok_replace_inner r other g :
  holds g r -> settled g ->
  okc (replace_inner r other) g (fun r' g' => r' = other /\ settled g'
        /\ match r with
           | Heap b _ => g_refs g' b = (g_refs g b - 1)%nat /\ forall b', b' <> b -> same_at g g' b'
           | _ => g' = g
           end).
Proof.
  intros Hh Hs. destruct r as [bs|b l|s l]; cbn [replace_inner]; [cbn; auto| |cbn; auto].
  (* whether or not this thread frees: one reference fewer to b, nothing owed, the other buffers untouched *)
  assert (Hend : forall fr fen, (forall x, fr x = false) ->
            okc (Ret other) {| g_refs := setf (g_refs g) b (g_refs g b - 1)%nat; g_excl := setf (g_excl g) b false;
                               g_free := fr; g_fen := fen; g_bor := g_bor g |}
                (fun r' g' => r' = other /\ settled g' /\ g_refs g' b = (g_refs g b - 1)%nat /\ forall b', b' <> b -> same_at g g' b')).
  { intros fr fen Hfr. cbn [okc]. split; [reflexivity|]. split; [exact Hfr|]. split; [apply setf_eq|]. intros b' Hb.
    unfold same_at. cbn [g_refs g_excl g_free]. rewrite !setf_ne, Hfr, Hs by auto. auto. }
  apply okc_bind. split; [apply Hh|]. split; [apply Hh|].
  split; [reflexivity (* the decrement is at least Release: ord_replace_inner_0, regenerated from the source *)|].
  intros v. cbn [okc]. destruct (v =? 1); cbn [bind fence heap_dealloc hdr_cap dealloc okc].
  - (* the fence is at least Acquire: ord_replace_inner_1, regenerated from the source *)
    split; [right; right; left; cbn [g_free g_fen]; rewrite setf_eq; auto|]. intros c.
    destruct (layout_from_capacity c) as [sz|]; [|exact I]. cbn [bind dealloc okc g_free g_fen]. rewrite setf_eq.
    split; [reflexivity|]. split; [reflexivity|]. apply Hend. intros x. unfold setf. destruct (Nat.eqb x b); [reflexivity|apply Hs].
  - apply Hend. intros x. unfold setf. destruct (Nat.eqb x b); [reflexivity|apply Hs].
Qed.
Lemma ok_release r other g (Q : repr -> ghost -> Prop) :
  holds g r -> settled g ->
  (forall g', settled g' -> (forall x, (g_refs g' x + nm r x = g_refs g x)%nat) ->
              (forall x, nm r x = 0%nat -> g_excl g' x = g_excl g x) -> Q other g') ->
  okc (replace_inner r other) g Q.
Proof.
  intros Hh Hs HQ. eapply okc_mono; [apply ok_replace_inner; assumption|]. intros r' g' _ (-> & S' & Hm).
  destruct r as [d|b l|s l]; cbn [nm] in HQ; try (subst g'; apply HQ; auto).
  destruct Hm as (E & Same), Hh as (Hr & _). apply HQ; [exact S'| |]; intros x; destruct (Nat.eqb_spec b x) as [->|Hne].
  - lia.
  - rewrite (proj1 (Same x (not_eq_sym Hne))). lia.
  - discriminate.
  - intros _. apply (Same x (not_eq_sym Hne)).
Qed.

Definition galloc (g : ghost) (b : bufid) : ghost :=
  {| g_refs := setf (g_refs g) b 1%nat; g_excl := setf (g_excl g) b true; g_free := g_free g; g_fen := g_fen g; g_bor := g_bor g |}.
Lemma holds_galloc g b r : holds g r -> holds (galloc g b) r.
Proof.
  destruct r as [d|b' l|s l]; cbn [holds galloc g_refs g_free]; auto. intros (H1 & H2). split; [|exact H2].
  unfold setf. destruct (Nat.eqb b' b); [lia|exact H1].
Qed.
Lemma refs_galloc g b l x : g_refs g b = 0%nat -> g_refs (galloc g b) x = (g_refs g x + nm (Heap b l) x)%nat.
Proof. intros H. rewrite <- refs_one_more, H. reflexivity. Qed.

Lemma ok_allocate_ptr c g (Q : option bufid -> ghost -> Prop) :
  Q None g ->
  (forall b, g_refs g b = 0%nat -> g_excl g b = false -> g_free g b = false -> Q (Some b) (galloc g b)) ->
  okc (allocate_ptr c) g Q.
Proof.
  intros Hn Hs. unfold allocate_ptr. destruct (layout_from_capacity c) as [sz|]; [|exact Hn].
  apply okc_bind. split; [exact Hn|]. intros b H1 H2 H3. apply okc_bind, ok_hdr_init; [apply setf_eq|]. apply Hs; auto.
Qed.

(* the constructors of a heap handle: they fail, or return a handle on a buffer the thread did not know, exclusively *)
Definition fresh_heap (c : cmd (option repr)) : Prop :=
  forall g (Q : option repr -> ghost -> Prop),
    Q None g ->
    (forall b l, g_refs g b = 0%nat -> g_excl g b = false -> g_free g b = false -> Q (Some (Heap b l)) (galloc g b)) ->
    okc c g Q.
(* allocate and copy: the shape shared by HeapBuffer::new / with_additional *)
Lemma ok_alloc_copy c t l :
  fresh_heap (ob <- allocate_ptr c ;; match ob with None => Ret None | Some b => write (PHeap b) 0 t ;;; Ret (Some (Heap b l)) end).
Proof.
  intros g Q Hn Hs. apply okc_bind, ok_allocate_ptr; [exact Hn|]. intros b H1 H2 H3.
  apply okc_bind, ok_write; [apply setf_eq|]. apply Hs; auto.
Qed.
Lemma ok_heap_with_additional t add : fresh_heap (heap_with_additional t add).
Proof.
  intros g Q Hn Hs. unfold heap_with_additional. destruct (text_len_new (len t)) as [l|]; [|exact Hn].
  destruct (capacity_new _) as [c|]; [|exact Hn]. apply ok_alloc_copy; assumption.
Qed.
Lemma ok_heap_new t : fresh_heap (heap_new t).
Proof.
  intros g Q Hn Hs. unfold heap_new. destruct (text_len_new (len t)) as [l|]; [|exact Hn].
  destruct (capacity_new _) as [c|]; [|exact Hn]. apply ok_alloc_copy; assumption.
Qed.

Lemma ok_heap_realloc b nc g (Q : bool -> ghost -> Prop) :
  g_excl g b = true -> (forall ok, Q ok g) -> okc (heap_realloc b nc) g Q.
Proof.
  intros He HQ. unfold heap_realloc. destruct (capacity_new nc) as [c|]; [|apply HQ].
  apply okc_bind, ok_hdr_cap; [right; left; exact He|]. intros cur.
  destruct (layout_from_capacity cur) as [sz|]; [|exact I]. apply okc_bind. split; [exact He|].
  intros [|]; [|apply HQ]. apply okc_bind, ok_hdr_init; [exact He|apply HQ].
Qed.

(* the uniqueness test: an acquire load made while holding a reference; it changes g_excl only, which
   holds / settled / cons do not mention *)
Definition gload (g : ghost) (b : bufid) (u : bool) : ghost :=
  {| g_refs := g_refs g; g_excl := setf (g_excl g) b (g_excl g b || u); g_free := g_free g; g_fen := g_fen g; g_bor := g_bor g |}.
Lemma ok_is_unique b g (Q : bool -> ghost -> Prop) :
  (0 < g_refs g b)%nat -> (forall u, Q u (gload g b u)) -> okc (heap_is_unique b) g Q.
Proof.
  intros Hr HQ. apply okc_bind. split; [exact Hr|]. split; [reflexivity (* acquire: ord_is_unique_0 *)|]. intros v. apply HQ.
Qed.
Lemma holds_unique g b l : holds g (Heap b l) -> holds_excl (gload g b true) (Heap b l).
Proof. intros (H1 & H2). split; [exact H1|]. split; [exact H2|]. cbn [gload g_excl]. rewrite setf_eq. apply Bool.orb_true_r. Qed.

(* making a handle writable (reserve, ensure_modifiable): the result handle is held, exclusively if the step succeeded,
   nothing is owed, and the counts moved exactly with the handle *)
Definition mu_post (g : ghost) (r : repr) : repr * bool -> ghost -> Prop :=
  fun p g' => settled g' /\ holds g' (fst p) /\ (snd p = true -> holds_excl g' (fst p)) /\ cons g r g' (fst p).
Lemma mu_same g r ok : settled g -> holds g r -> (ok = true -> holds_excl g r) -> mu_post g r (r, ok) g.
Proof. intros Hs Hh He. exact (conj Hs (conj Hh (conj He (fun _ => eq_refl)))). Qed.
Lemma mu_holds {g r p g'} : mu_post g r p g' -> holds g' (fst p).
Proof. intros (_ & H & _). exact H. Qed.
Lemma mu_excl {g r r' g'} : mu_post g r (r', true) g' -> holds_excl g' r'.
Proof. intros (_ & _ & H & _). exact (H eq_refl). Qed.

(* copy, then release: the handle is replaced by one on a fresh buffer and only then given up (for a handle without
   a buffer, [replace_inner r r'] is [Ret r']) *)
Lemma ok_replace_by_fresh r mk g :
  fresh_heap mk -> holds g r -> settled g ->
  okc (on <- mk ;; match on with None => Ret (r, false) | Some r' => r'' <- replace_inner r r' ;; Ret (r'', true) end) g (mu_post g r).
Proof.
  intros Hmk Hh Hs. apply okc_bind, Hmk; [apply mu_same; [exact Hs|exact Hh|discriminate]|].
  intros b l N1 _ N3. pose proof (holds_nm0 g r b Hh N1) as Hnm.
  apply okc_bind, ok_release; [apply holds_galloc; exact Hh|exact Hs|]. intros g' S' R' X'.
  pose proof (R' b) as Rb. rewrite (refs_galloc g b l b N1), Hnm in Rb. cbn [nm] in Rb. rewrite Nat.eqb_refl in Rb.
  assert (Hh' : holds g' (Heap b l)) by (split; [lia|apply S']).
  split; [exact S'|]. split; [exact Hh'|]. split.
  - intros _. split; [apply Hh'|]. split; [apply S'|]. rewrite (X' b Hnm). apply setf_eq.
  - intros x. rewrite R'. apply refs_galloc. exact N1.
Qed.

Definition unique_post (ok : bool) (r' : repr) (g' : ghost) : Prop :=
  settled g' /\ holds g' r' /\ (ok = true -> holds_excl g' r' \/ is_static r' = true).

(* reserve: the buffer is written, reallocated or its header rewritten only after the uniqueness test returned true; on
   the shared path the old buffer is only read (while still holding the reference) and the reference is given up after
   the copy exists *)
Lemma ok_reserve r add g : holds g r -> settled g -> okc (reserve r add) g (mu_post g r).
Proof.
  intros Hh Hs. unfold reserve. destruct (checked_add (repr_len r) add) as [needed|]; [|apply mu_same; auto; discriminate].
  destruct r as [bs|b l|s l].
  - destruct (cond_reserve_inline_grow needed); [|apply mu_same; auto].
    apply (ok_replace_by_fresh (Inline bs)); [apply ok_heap_with_additional|exact Hh|exact Hs].
  - apply okc_bind, ok_is_unique; [apply Hh|]. intros [|].
    + pose proof (holds_unique g b l Hh) as He.
      apply okc_bind, ok_hdr_cap; [left; apply Hh|]. intros c.
      destruct (cond_reserve_enough c needed); [apply (mu_same (gload g b true)); auto|].
      apply okc_bind, ok_heap_realloc; [apply He|]. intros ok. apply (mu_same (gload g b true)); auto.
    + apply okc_bind, (ok_as_bytes (Heap b l)); [exact Hh|]. intros t.
      exact (ok_replace_by_fresh (Heap b l) _ (gload g b false) (ok_heap_with_additional t add) Hh Hs).
  - apply okc_bind, (ok_as_bytes (Static s l)); [exact I|]. intros t.
    destruct (cond_reserve_static_inline needed); [exact (conj Hs (conj I (conj (fun _ => I) (fun _ => eq_refl))))|].
    apply (ok_replace_by_fresh (Static s l)); [apply ok_heap_with_additional|exact I|exact Hs].
Qed.

Lemma ok_ensure_modifiable r g : holds g r -> settled g -> okc (ensure_modifiable r) g (mu_post g r).
Proof.
  intros Hh Hs. unfold ensure_modifiable. destruct r as [bs|b l|s l].
  - apply mu_same; auto.
  - apply okc_bind, ok_is_unique; [apply Hh|]. intros [|].
    + apply (mu_same (gload g b true)); auto. intros _. apply holds_unique. exact Hh.
    + apply okc_bind, (ok_as_bytes (Heap b l)); [exact Hh|]. intros t.
      exact (ok_replace_by_fresh (Heap b l) _ (gload g b false) (ok_heap_new t) Hh Hs).
  - apply okc_bind, (ok_as_bytes (Static s l)); [exact I|]. intros t. unfold from_str.
    destruct (cond_from_str_inline (len t)); [exact (conj Hs (conj I (conj (fun _ => I) (fun _ => eq_refl))))|].
    apply (ok_replace_by_fresh (Static s l)); [apply ok_heap_new|exact I|exact Hs].
Qed.
