(* Num.v — proofs about the integer formatter model of NumModel.v:
   the writer produces exactly the decimal text, of exactly `digits_count` bytes, never storing out of bounds. *)
From Coq Require Import ZArith Lia ZifyBool List Bool.
From LS Require Import Base NumModel ListFacts.
Open Scope N_scope.

Fixpoint p10 (d : nat) : N := match d with O => 1 | S d' => p10 d' * 10 end.

Lemma p10_pos d : 0 < p10 d.
Proof. induction d as [|d IH]; cbn [p10]; lia. Qed.

Lemma p10_le a b : (a <= b)%nat -> p10 a <= p10 b.
Proof. intros H. induction H as [|b H IH]; cbn [p10]; lia. Qed.

Lemma p10_add a b : p10 (a + b) = p10 a * p10 b.
Proof. induction a as [|a IH]; cbn [p10 Nat.add]; [lia | rewrite IH; lia]. Qed.

Lemma u64_lt_p10_20 n : n < 18446744073709551616 -> n < p10 20.
Proof. intros H. change (p10 20) with 100000000000000000000. lia. Qed.

Lemma div_p10_lt n j d : n / p10 j < p10 d <-> n < p10 (d + j).
Proof.
  pose proof (p10_pos j) as Hj. rewrite p10_add, (N.mul_comm (p10 d)). split; intros H.
  - destruct (N.lt_ge_cases n (p10 j * p10 d)) as [Hlt|Hge]; [exact Hlt|].
    apply N.div_le_lower_bound in Hge; lia.
  - apply N.div_lt_upper_bound; [lia | exact H].
Qed.

Lemma div_p10_le n j d : n < p10 d -> n / p10 j < p10 d.
Proof. intros H. apply div_p10_lt. pose proof (p10_le d (d + j)). lia. Qed.

Lemma div_mod_100 x : x < 10000 -> x / 100 < 100 /\ x mod 100 < 100.
Proof. intros H. split; [apply N.div_lt_upper_bound; lia | apply N.mod_lt; discriminate]. Qed.

(* ndigits n is the least d >= 1 with n < 10^d *)
Lemma ndig_fuel_le_iff fuel : forall n k d, n < p10 (k + fuel) ->
  (ndig_fuel fuel n (p10 k) k <= d)%nat <-> (k <= d)%nat /\ n < p10 d.
Proof.
  assert (Hstop : forall n k d, n < p10 k -> (k <= d)%nat <-> (k <= d)%nat /\ n < p10 d).
  { intros n k d Hn. split; [intros Hk; pose proof (p10_le k d Hk); lia | tauto]. }
  induction fuel as [|f IH]; intros n k d Hn; cbn [ndig_fuel].
  - rewrite Nat.add_0_r in Hn. exact (Hstop n k d Hn).
  - destruct (N.ltb_spec n (p10 k)) as [Hlt|Hge]; [exact (Hstop n k d Hlt)|].
    change (p10 k * 10) with (p10 (S k)). rewrite IH by (rewrite Nat.add_succ_comm; exact Hn).
    split; intros [Hk Hd]; (split; [|exact Hd]); [lia|].
    destruct (Nat.eq_dec k d) as [->|]; lia.
Qed.

Lemma ndigits_le_iff n d : n < p10 20 -> (ndigits n <= d)%nat <-> (1 <= d)%nat /\ n < p10 d.
Proof. intros H. pose proof (p10_le 20 (1 + 20)). apply (ndig_fuel_le_iff 20 n 1 d). lia. Qed.

Lemma ndigits_spec n : n < p10 20 -> (1 <= ndigits n)%nat /\ n < p10 (ndigits n).
Proof. intros H. apply (ndigits_le_iff n _ H). lia. Qed.

Lemma ndigits_gt n d : n < p10 20 -> p10 d <= n -> (d < ndigits n)%nat.
Proof.
  intros H Hd. destruct (Nat.le_gt_cases (ndigits n) d) as [Hle|Hgt]; [|exact Hgt].
  apply (ndigits_le_iff n d H) in Hle. lia.
Qed.

(* ndigits is monotone on all of N: from 10^20 on the count stays at 21 *)
Lemma ndig_fuel_ge fuel : forall n p d, (d <= ndig_fuel fuel n p d)%nat.
Proof.
  induction fuel as [|f IH]; intros n p d; cbn [ndig_fuel]; [lia|].
  destruct (n <? p); [lia|]. specialize (IH n (p * 10) (S d)). lia.
Qed.

Lemma ndig_fuel_mono fuel : forall n m p d, n <= m -> (ndig_fuel fuel n p d <= ndig_fuel fuel m p d)%nat.
Proof.
  induction fuel as [|f IH]; intros n m p d H; cbn [ndig_fuel]; [lia|].
  destruct (N.ltb_spec n p), (N.ltb_spec m p); [lia | | lia | apply IH, H].
  pose proof (ndig_fuel_ge f m (p * 10) (S d)). lia.
Qed.

Lemma ndigits_mono n m : n <= m -> (ndigits n <= ndigits m)%nat.
Proof. apply ndig_fuel_mono. Qed.

Lemma ndigits_div n j : p10 j <= n -> n < p10 20 -> (ndigits (n / p10 j) + j = ndigits n)%nat.
Proof.
  intros Hj Hn.
  pose proof (div_p10_le n j 20 Hn) as Hq.
  destruct (ndigits_spec _ Hq) as [Hq1 Hq2]. destruct (ndigits_spec n Hn) as [_ Hn2].
  pose proof (ndigits_gt n j Hn Hj) as Hg.
  apply Nat.le_antisymm.
  - enough (ndigits (n / p10 j) <= ndigits n - j)%nat by lia.
    apply ndigits_le_iff; [exact Hq|]. split; [lia|]. apply div_p10_lt.
    replace (ndigits n - j + j)%nat with (ndigits n) by lia. exact Hn2.
  - apply ndigits_le_iff; [exact Hn|]. split; [lia|]. apply div_p10_lt. exact Hq2.
Qed.

Lemma ndigits_lt_100 n : n < 100 -> ndigits n = if n <? 10 then 1%nat else 2%nat.
Proof.
  intros H. unfold ndigits. cbn [ndig_fuel]. destruct (n <? 10); [reflexivity|].
  rewrite (proj2 (N.ltb_lt n (10 * 10))) by lia. reflexivity.
Qed.

Lemma len_digs d n : len (digs d n) = N.of_nat d.
Proof.
  revert n; induction d as [|d IH]; intros n; cbn [digs]; [reflexivity|].
  rewrite len_app, IH. unfold len. cbn [length]. lia.
Qed.

Lemma digs_app b : forall a n, digs (b + a) n = digs a (n / p10 b) ++ digs b n.
Proof.
  induction b as [|b IH]; intros a n; cbn [Nat.add digs p10].
  - rewrite N.div_1_r, app_nil_r. reflexivity.
  - rewrite IH, app_assoc. f_equal. f_equal.
    pose proof (p10_pos b) as Hp.
    rewrite N.div_div by lia. rewrite (N.mul_comm 10). reflexivity.
Qed.

Lemma digs_mod d : forall n, digs d (n mod p10 d) = digs d n.
Proof.
  induction d as [|d IH]; intros n; cbn [digs p10]; [reflexivity|].
  pose proof (p10_pos d) as Hp.
  rewrite <- (IH (n / 10)), (N.mul_comm (p10 d)), N.mod_mul_r by lia.
  rewrite (N.mul_comm 10), N.div_add, N.mod_add, N.mod_mod, (N.div_small (n mod 10)), N.add_0_l by (try apply N.mod_lt; lia).
  reflexivity.
Qed.

Lemma digs_ascii d : forall n, Forall (fun b => b = 45 \/ 48 <= b <= 57) (digs d n).
Proof.
  induction d as [|d IH]; intros n; cbn [digs]; [constructor|].
  apply Forall_app. split; [apply IH|].
  constructor; [|constructor]. right. zify. Z.to_euclidean_division_equations. lia.
Qed.

Lemma dec_N_split n j : p10 j <= n -> n < p10 20 -> dec_N n = dec_N (n / p10 j) ++ digs j n.
Proof. intros Hj Hn. unfold dec_N. rewrite <- digs_app, Nat.add_comm, ndigits_div by assumption. reflexivity. Qed.

(* the two stores of one loop iteration write the four low digits *)
Lemma digs4_split n : digs 2 (n mod 10000 / 100) ++ digs 2 (n mod 10000 mod 100) = digs 4 n.
Proof.
  change 100 with (p10 2). change 10000 with (p10 4).
  rewrite (digs_mod 2), <- (digs_app 2 2), (digs_mod 4). reflexivity.
Qed.

Definition put (buf : list N) (c : N) (w : list N) : list N := write_range buf (N.to_nat c) w.

Lemma put_len buf c w : c + len w <= len buf -> len (put buf c w) = len buf.
Proof. apply len_write_range. Qed.

Lemma put_after buf c u c' v : c' = c + len u -> c <= len buf -> put (put buf c u) c' v = put buf c (u ++ v).
Proof. unfold put, len. intros -> H. rewrite N2Nat.inj_add, Nat2N.id. apply write_range_after. lia. Qed.

Lemma put_before buf c v c' u : c' + len u = c -> c <= len buf -> put (put buf c v) c' u = put buf c' (u ++ v).
Proof. unfold put, len. intros <- H. rewrite N2Nat.inj_add, Nat2N.id. apply write_range_before. lia. Qed.

Lemma put_all buf w : len w = len buf -> put buf 0 w = w.
Proof. unfold put, len. intros H. apply write_range_all. lia. Qed.

Lemma dec_curr_add c k : dec_curr (c + k) k = Some c.
Proof. unfold dec_curr. rewrite (proj2 (N.ltb_ge (c + k) k)), N.add_sub by lia. reflexivity. Qed.

Lemma store1_put buf c y : c < len buf -> store1 buf c y = Some (put buf c [y]).
Proof.
  intros H. unfold store1, put. rewrite (proj2 (N.ltb_lt _ _) H), upd_write_range by (unfold len in H; lia).
  reflexivity.
Qed.

Lemma lut_entries lut x : lut_ok lut = true -> x < 100 ->
  len lut = 200 /\ nthN lut (N.to_nat (x * 2)) = 48 + x / 10 /\ nthN lut (N.to_nat (x * 2 + 1)) = 48 + x mod 10.
Proof.
  unfold lut_ok. rewrite andb_true_iff, forallb_forall, N.eqb_eq. intros [Hlen Hall] Hx.
  specialize (Hall (N.to_nat x)). rewrite in_seq, andb_true_iff, !N.eqb_eq, N2Nat.id in Hall.
  replace (N.to_nat (x * 2)) with (2 * N.to_nat x)%nat by lia.
  replace (N.to_nat (x * 2 + 1)) with (2 * N.to_nat x + 1)%nat by lia.
  split; [exact Hlen | apply Hall; lia].
Qed.

(* the writer: started with the cursor at c + ndigits n, it leaves the text of n at c *)
Section Writer.
Variable lut : list N.
Hypothesis Hlut : lut_ok lut = true.

Lemma store2_put buf c x : x < 100 -> c + 2 <= len buf -> store2 lut buf c (x * 2) = Some (put buf c (digs 2 x)).
Proof.
  intros Hx Hc. destruct (lut_entries lut x Hlut Hx) as (Hlen & H1 & H2).
  unfold store2. rewrite Hlen, H1, H2, (proj2 (N.ltb_lt (x * 2 + 1) 200)) by lia.
  rewrite store1_put by lia. rewrite store1_put by (rewrite put_len; change (len [_]) with 1; lia).
  rewrite (put_after buf c) by (reflexivity || lia).
  cbn [digs app]. rewrite (N.mod_small (x / 10)) by (apply N.div_lt_upper_bound; lia). reflexivity.
Qed.

Lemma tail_lt_100 n c buf : n < 100 -> c + N.of_nat (ndigits n) <= len buf ->
  tail lut n (c + N.of_nat (ndigits n)) buf = Some (c, put buf c (dec_N n)).
Proof.
  intros Hn Hc. unfold tail, dec_N. rewrite ndigits_lt_100 in * by exact Hn.
  rewrite (proj2 (N.leb_gt 100 n) Hn).
  destruct (N.ltb_spec n 10) as [H|H].
  - change (N.of_nat 1) with 1 in *. rewrite dec_curr_add, store1_put by lia.
    cbn [digs app]. rewrite (N.mod_small n 256), (N.mod_small n 10), (N.add_comm n) by lia. reflexivity.
  - change (N.of_nat 2) with 2 in *. rewrite dec_curr_add, store2_put by lia. reflexivity.
Qed.

Lemma tail_ge_100 n c buf : 100 <= n < 10000 -> c + 2 <= len buf ->
  tail lut n (c + 2) buf = tail lut (n / 100) c (put buf c (digs 2 n)).
Proof.
  intros Hn Hc. destruct (div_mod_100 n (proj2 Hn)) as [Hq Hr]. unfold tail.
  rewrite (proj2 (N.leb_le 100 n)), (proj2 (N.leb_gt 100 (n / 100))), dec_curr_add, store2_put by lia.
  rewrite (digs_mod 2 n : digs 2 (n mod 100) = _). reflexivity.
Qed.

Lemma tail_spec n c buf : n < 10000 -> c + N.of_nat (ndigits n) <= len buf ->
  tail lut n (c + N.of_nat (ndigits n)) buf = Some (c, put buf c (dec_N n)).
Proof.
  intros Hn Hc.
  destruct (N.lt_ge_cases n 100) as [Hlt|Hge]; [exact (tail_lt_100 n c buf Hlt Hc)|].
  assert (H20 : n < p10 20) by (apply u64_lt_p10_20; lia).
  pose proof (ndigits_div n 2 Hge H20 : (ndigits (n / 100) + 2 = ndigits n)%nat) as Hd.
  pose proof (proj1 (div_mod_100 n Hn)) as Hq.
  replace (c + N.of_nat (ndigits n)) with (c + N.of_nat (ndigits (n / 100)) + 2) in * by lia.
  rewrite tail_ge_100, tail_lt_100 by (rewrite ?put_len; rewrite ?len_digs; lia).
  rewrite (put_before buf), <- (dec_N_split n 2 Hge H20 : _ = dec_N (n / 100) ++ _) by (unfold dec_N; rewrite ?len_digs; lia).
  reflexivity.
Qed.

Lemma loop4_small fuel n curr buf : n < 10000 -> loop4 fuel lut n curr buf = Some (n, curr, buf).
Proof. intros H. destruct fuel; cbn [loop4]; rewrite (proj2 (N.ltb_lt n 10000) H); reflexivity. Qed.

Lemma loop4_ge f n c buf : 10000 <= n -> c + 4 <= len buf ->
  loop4 (S f) lut n (c + 4) buf = loop4 f lut (n / 10000) c (put buf c (digs 4 n)).
Proof.
  intros Hn Hc. destruct (div_mod_100 (n mod 10000)) as [Hq Hr]; [apply N.mod_lt; discriminate|]. cbn [loop4].
  rewrite (proj2 (N.ltb_ge n 10000) Hn), dec_curr_add, store2_put by lia.
  rewrite store2_put by (rewrite ?put_len; rewrite ?len_digs; lia).
  rewrite (put_after buf c), digs4_split by (reflexivity || lia). reflexivity.
Qed.

Lemma loop4_tail_spec fuel : forall n c buf,
  n < p10 (4 * fuel) -> n < p10 20 -> c + N.of_nat (ndigits n) <= len buf ->
  exists n1 c1 b1, loop4 fuel lut n (c + N.of_nat (ndigits n)) buf = Some (n1, c1, b1)
    /\ tail lut n1 c1 b1 = Some (c, put buf c (dec_N n)).
Proof.
  induction fuel as [|f IH]; intros n c buf Hf Hn Hc;
    (destruct (N.lt_ge_cases n 10000) as [Hlt|Hge];
      [eexists _, _, _; split; [apply loop4_small | apply tail_spec]; assumption|]).
  - change (p10 (4 * 0)) with 1 in Hf. lia.
  - pose proof (ndigits_div n 4 Hge Hn : (ndigits (n / 10000) + 4 = ndigits n)%nat) as Hd.
    replace (c + N.of_nat (ndigits n)) with (c + N.of_nat (ndigits (n / 10000)) + 4) in * by lia.
    rewrite loop4_ge, (dec_N_split n 4 Hge Hn : _ = dec_N (n / 10000) ++ _), <- (put_before buf (c + N.of_nat (ndigits (n / 10000))))
      by (exact Hge || (unfold dec_N; rewrite ?len_digs; lia)).
    apply IH.
    + apply (div_p10_lt n 4). replace (4 * f + 4)%nat with (4 * S f)%nat by lia. exact Hf.
    + exact (div_p10_le n 4 20 Hn).
    + rewrite put_len; rewrite ?len_digs; lia.
Qed.

Lemma write_int_correct (neg : bool) n : n < 18446744073709551616 ->
  write_int lut (N.of_nat (ndigits n) + (if neg then 1 else 0)) neg n = Some ((if neg then [45] else []) ++ dec_N n).
Proof.
  intros Hn. pose proof (u64_lt_p10_20 n Hn) as H20. unfold write_int.
  rewrite N.add_comm. set (s := if neg then 1 else 0).
  set (buf := repeat 255 (N.to_nat (s + N.of_nat (ndigits n)))).
  assert (Hlen : len buf = s + N.of_nat (ndigits n)) by (unfold buf; rewrite len_repeat; apply N2Nat.id).
  destruct (loop4_tail_spec 6 n s buf) as (n1 & c1 & b1 & -> & ->);
    [change (p10 (4 * 6)) with 1000000000000000000000000; lia | exact H20 | lia |].
  assert (Hd : len (dec_N n) = N.of_nat (ndigits n)) by apply len_digs.
  destruct neg; subst s; cbv zeta.
  - rewrite (dec_curr_add 0 1 : dec_curr 1 1 = _), store1_put by (rewrite ?put_len; lia).
    rewrite (put_before buf 1), put_all by (cbn [app]; rewrite ?len_cons; (reflexivity || lia)). reflexivity.
  - rewrite put_all by lia. reflexivity.
Qed.

End Writer.

Lemma dlen_abs z : dlen z = N.of_nat (ndigits (Z.to_N (Z.abs z))) + (if (z <? 0)%Z then 1 else 0).
Proof.
  unfold dlen. destruct (Z.ltb_spec z 0).
  - rewrite Z.abs_neq by lia. reflexivity.
  - rewrite Z.abs_eq, N.add_0_r by lia. reflexivity.
Qed.

Lemma dec_abs z : dec z = (if (z <? 0)%Z then [45] else []) ++ dec_N (Z.to_N (Z.abs z)).
Proof.
  unfold dec. destruct (Z.ltb_spec z 0).
  - rewrite Z.abs_neq by lia. reflexivity.
  - rewrite Z.abs_eq by lia. reflexivity.
Qed.

Lemma dlen_mono x y : (x < 0 <-> y < 0)%Z -> (Z.abs x <= Z.abs y)%Z -> dlen x <= dlen y.
Proof.
  intros Hs H. rewrite !dlen_abs.
  pose proof (ndigits_mono (Z.to_N (Z.abs x)) (Z.to_N (Z.abs y)) ltac:(lia)).
  destruct (Z.ltb_spec x 0), (Z.ltb_spec y 0); lia.
Qed.

Lemma dlen_row a b z k : (a <= z <= b)%Z -> (b < 0 \/ 0 <= a)%Z -> dlen a = k -> dlen b = k -> dlen z = k.
Proof.
  intros Hz Hs Ea Eb.
  enough (dlen a <= dlen z <= dlen b \/ dlen b <= dlen z <= dlen a) by lia.
  destruct Hs; [right|left]; split; apply dlen_mono; lia.
Qed.

Lemma lookup_rows t : forall next hi, check_rows t next hi = true ->
  forall z, (next <= z <= hi)%Z -> lookup t z = Some (dlen z).
Proof.
  induction t as [|[[a b] k] t IH]; intros next hi H z Hz; cbn [check_rows lookup] in *; [lia|].
  apply andb_prop in H. destruct H as [H Ht].
  destruct (Z.leb_spec z b) as [Hzb|Hzb].
  - replace (a <=? z)%Z with true by lia. cbn [andb].
    f_equal. symmetry. apply (dlen_row a b z k); lia.
  - rewrite andb_false_r. apply (IH (b + 1)%Z hi Ht); lia.
Qed.

Lemma check_table_bounds table lo hi : check_table table lo hi = true ->
  (-9223372036854775808 <= lo)%Z /\ (hi <= 18446744073709551615)%Z /\ check_rows table lo hi = true.
Proof. unfold check_table. intros H. apply andb_prop in H. destruct H as [H Hr]. split; [|split]; [lia..|exact Hr]. Qed.

Theorem lookup_is_length :
  forall table lo hi, check_table table lo hi = true ->
    forall z, (lo <= z <= hi)%Z -> lookup table z = Some (dlen z).
Proof.
  intros table lo hi H z Hz. destruct (check_table_bounds table lo hi H) as (_ & _ & Hrows).
  exact (lookup_rows table lo hi Hrows z Hz).
Qed.
Print Assumptions lookup_is_length.

Theorem dec_length : forall z, len (dec z) = dlen z.
Proof.
  intros z. rewrite dec_abs, dlen_abs, len_app, (len_digs _ _ : len (dec_N _) = _).
  destruct (z <? 0)%Z; reflexivity || apply N.add_comm.
Qed.
Print Assumptions dec_length.

Theorem dlen_le_20 : forall z, (-9223372036854775808 <= z <= 18446744073709551615)%Z -> 1 <= dlen z <= 20.
Proof.
  intros z Hz. rewrite dlen_abs.
  assert (H20 : Z.to_N (Z.abs z) < p10 20) by (apply u64_lt_p10_20; lia).
  pose proof (proj1 (ndigits_spec _ H20)) as H1.
  destruct (Z.ltb_spec z 0) as [Hneg|Hpos].
  - enough (ndigits (Z.to_N (Z.abs z)) <= 19)%nat by lia.
    apply ndigits_le_iff; [exact H20|]. change (p10 19) with 10000000000000000000. lia.
  - enough (ndigits (Z.to_N (Z.abs z)) <= 20)%nat by lia.
    apply ndigits_le_iff; [exact H20|]. lia.
Qed.
Print Assumptions dlen_le_20.

Theorem dec_ascii : forall z, Forall (fun b => b = 45 \/ 48 <= b <= 57) (dec z).
Proof.
  intros z. rewrite dec_abs. apply Forall_app. split; [|apply digs_ascii].
  destruct (z <? 0)%Z; repeat constructor.
Qed.
Print Assumptions dec_ascii.

Theorem magnitude_abs : forall z, (-9223372036854775808 <= z <= 18446744073709551615)%Z -> magnitude z = Z.to_N (Z.abs z).
Proof.
  intros z Hz. unfold magnitude, as_u64, wrapping_add, USIZE_MAX.
  destruct (Z.leb_spec 0 z) as [Hpos|Hneg].
  - rewrite Z.mod_small by lia. f_equal. lia.
  - replace (z mod 18446744073709551616)%Z with (z + 18446744073709551616)%Z.
    + change (18446744073709551615 + 1) with 18446744073709551616.
      rewrite N.mod_small by lia. lia.
    + apply (Z.mod_unique _ _ (-1)); lia.
Qed.
Print Assumptions magnitude_abs.

Theorem int_to_text_correct :
  forall (lut : list N) (table : list (Z * Z * N)) (lo hi : Z),
    lut_ok lut = true -> check_table table lo hi = true ->
    forall z : Z, (lo <= z <= hi)%Z -> int_to_text lut table z = Some (dec z).
Proof.
  intros lut table lo hi Hlut Htab z Hz.
  destruct (check_table_bounds table lo hi Htab) as [Hlo [Hhi _]].
  assert (Hr : (-9223372036854775808 <= z <= 18446744073709551615)%Z) by lia.
  unfold int_to_text.
  rewrite (lookup_is_length table lo hi Htab z Hz), (magnitude_abs z Hr), <- Z.ltb_antisym, dlen_abs, dec_abs.
  apply (write_int_correct lut Hlut). lia.
Qed.
Print Assumptions int_to_text_correct.
