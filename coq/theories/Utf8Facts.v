(* Utf8Facts.v — well-formed UTF-8 over byte lists.  One char is taken apart through the encoding relation enc, which
   gives the round trips with the code point and the shape of a char; texts through Valid: first and last char, char
   boundaries, chars_of, and the automaton utf8_valid, which decides Valid. *)
From Coq Require Import Lia List Bool PeanoNat ZifyBool ZifyN ZifyNat.
From LS Require Import Base Utf8 Utf8Spec ListFacts.
Open Scope N_scope.

Lemma is_cont_iff b : is_cont b = true <-> 128 <= b < 192.
Proof. unfold is_cont. lia. Qed.

Lemma is_scalar_iff c : is_scalar c = true <-> c < 55296 \/ 57344 <= c < 1114112.
Proof. unfold is_scalar. lia. Qed.

Lemma width_of_lead_eq a k :
  k = 1 /\ a < 128 \/ k = 2 /\ 128 <= a < 224 \/ k = 3 /\ 224 <= a < 240 \/ k = 4 /\ 240 <= a -> width_of_lead a = k.
Proof.
  intros H. unfold width_of_lead.
  destruct (N.ltb_spec a 128); [lia|]. destruct (N.ltb_spec a 224); [lia|]. destruct (N.ltb_spec a 240); lia.
Qed.

Lemma valid_concat : forall cs, Forall (fun c => char_ok c = true) cs -> Valid (concat cs).
Proof. intros cs Hcs. exists cs. auto. Qed.

Lemma valid_nil : Valid [].
Proof. apply (valid_concat []). constructor. Qed.

Lemma valid_char : forall c, char_ok c = true -> Valid c.
Proof. intros c Hc. rewrite <- (app_nil_r c). apply (valid_concat [c]). auto. Qed.

Lemma valid_app : forall a b, Valid a -> Valid b -> Valid (a ++ b).
Proof.
  intros a b [ca [Ha ->]] [cb [Hb ->]]. rewrite <- concat_app. apply valid_concat, Forall_app. auto.
Qed.

Lemma valid_ascii : forall t, Forall (fun b => b < 128) t -> Valid t.
Proof.
  induction 1 as [|b t Hb _ IH]; [apply valid_nil|].
  apply (valid_app [b] t); [|exact IH]. apply valid_char, N.ltb_lt, Hb.
Qed.

Lemma valid_unsnoc : forall t, Valid t -> t <> [] ->
  exists pre c, t = pre ++ c /\ char_ok c = true /\ Valid pre.
Proof.
  intros t [cs [Hcs ->]] Hne. destruct cs as [|c cs _] using rev_ind; [contradiction|].
  apply Forall_app in Hcs as [Hcs Hc]. apply Forall_inv in Hc. rewrite concat_app. cbn [concat]. rewrite app_nil_r.
  exists (concat cs), c. auto using valid_concat.
Qed.

(* [enc v ch]: the bytes ch spell the value v, its base-64 digits distributed over a lead byte and up to three
   continuation bytes (Unicode table 3-6).  The side conditions exclude the overlong forms, the surrogates D800-DFFF
   and the values above 10FFFF; they are where the second-byte ranges of table 3-7 (char_ok) come from. *)
Variant enc : N -> list N -> Prop :=
| enc1 x : x < 128 -> enc x [x]
| enc2 x y : 2 <= x -> x < 32 -> y < 64 -> enc (x * 64 + y) [192 + x; 128 + y]
| enc3 x y z : x < 16 -> y < 64 -> z < 64 -> (x = 0 -> 32 <= y) -> (x = 13 -> y < 32) ->
    enc ((x * 64 + y) * 64 + z) [224 + x; 128 + y; 128 + z]
| enc4 x y z w : x < 5 -> y < 64 -> z < 64 -> w < 64 -> (x = 0 -> 16 <= y) -> (x = 4 -> y < 16) ->
    enc (((x * 64 + y) * 64 + z) * 64 + w) [240 + x; 128 + y; 128 + z; 128 + w].

Lemma payload {t m a} : t <= a < t + m -> exists x, a = t + x /\ x < m.
Proof. intros H. exists (a - t). lia. Qed.

(* the ranges of table 3-7 are read off once per length; from there on the arithmetic is about the digits *)
Lemma char_ok_enc {ch} : char_ok ch = true -> exists v, enc v ch.
Proof.
  intros H. destruct ch as [|a [|b [|c [|d [|e r]]]]]; cbn [char_ok] in H; try discriminate H; unfold in_range in H.
  - exists a. apply enc1. lia.
  - assert (192 <= a < 192 + 32 /\ 128 <= b < 128 + 64 /\ 194 <= a) as (Ra & Rb & R) by lia. clear H.
    destruct (payload Ra) as (x & -> & Hx), (payload Rb) as (y & -> & Hy).
    eexists. apply enc2; try assumption. lia.
  - assert (224 <= a < 224 + 16 /\ 128 <= b < 128 + 64 /\ 128 <= c < 128 + 64 /\
            (a = 224 -> 160 <= b) /\ (a = 237 -> b < 160)) as (Ra & Rb & Rc & R) by lia. clear H.
    destruct (payload Ra) as (x & -> & Hx), (payload Rb) as (y & -> & Hy), (payload Rc) as (z & -> & Hz).
    eexists. apply enc3; try assumption; lia.
  - assert (240 <= a < 240 + 5 /\ 128 <= b < 128 + 64 /\ 128 <= c < 128 + 64 /\ 128 <= d < 128 + 64 /\
            (a = 240 -> 144 <= b) /\ (a = 244 -> b < 144)) as (Ra & Rb & Rc & Rd & R) by lia. clear H.
    destruct (payload Ra) as (x & -> & Hx), (payload Rb) as (y & -> & Hy), (payload Rc) as (z & -> & Hz),
      (payload Rd) as (w & -> & Hw).
    eexists. apply enc4; try assumption; lia.
Qed.

Lemma enc_char_ok {v ch} : enc v ch -> char_ok ch = true.
Proof. intros []; cbn [char_ok]; unfold in_range; lia. Qed.

Lemma div_digit q m r : r < m -> (q * m + r) / m = q.
Proof. intros H. symmetry. apply N.div_unique with (r := r); lia. Qed.
Lemma mod_digit q m r : r < m -> (q * m + r) mod m = r.
Proof. intros H. symmetry. apply N.mod_unique with (q := q); lia. Qed.
Lemma split_digit c m : m <> 0 -> exists q r, c = q * m + r /\ r < m.
Proof. intros H. exists (c / m), (c mod m). pose proof (N.div_mod c m H). pose proof (N.mod_lt c m H). lia. Qed.

Lemma enc_decode {v ch} : enc v ch -> decode_cp ch = v.
Proof.
  intros []; cbn [decode_cp]; [reflexivity|..]; change 128 with (2 * 64).
  - change 192 with (6 * 32). rewrite !mod_digit by assumption. reflexivity.
  - change 224 with (14 * 16). rewrite !mod_digit by assumption. ring.
  - change 240 with (30 * 8). rewrite !mod_digit by lia. ring.
Qed.

Lemma enc_encode {v ch} : enc v ch -> encode_cp v = ch.
Proof.
  intros []; unfold encode_cp.
  - rewrite (proj2 (N.ltb_lt _ _)) by assumption. reflexivity.
  - rewrite (proj2 (N.ltb_ge _ 128)), (proj2 (N.ltb_lt _ 2048)) by lia.
    rewrite div_digit, mod_digit by assumption. reflexivity.
  - rewrite (proj2 (N.ltb_ge _ 128)), (proj2 (N.ltb_ge _ 2048)), (proj2 (N.ltb_lt _ 65536)) by lia.
    change 4096 with (64 * 64). rewrite <- N.div_div by discriminate.
    rewrite !div_digit, !mod_digit by assumption. reflexivity.
  - rewrite (proj2 (N.ltb_ge _ 128)), (proj2 (N.ltb_ge _ 2048)), (proj2 (N.ltb_ge _ 65536)) by lia.
    change 262144 with (64 * 64 * 64). change 4096 with (64 * 64). rewrite <- !N.div_div by discriminate.
    rewrite !div_digit, !mod_digit by assumption. reflexivity.
Qed.

Lemma enc_scalar {v ch} : enc v ch -> is_scalar v = true.
Proof. intros []; apply is_scalar_iff; lia. Qed.

Lemma scalar_enc c : is_scalar c = true -> enc c (encode_cp c).
Proof.
  intros H. apply is_scalar_iff in H. enough (E : exists ch, enc c ch).
  { destruct E as [ch E]. rewrite (enc_encode E). exact E. }
  destruct (split_digit c 64) as (q1 & z & -> & Hz); [discriminate|]. destruct (N.lt_ge_cases (q1 * 64 + z) 128) as [L1|L1].
  { eexists. apply enc1. exact L1. }
  destruct (N.lt_ge_cases (q1 * 64 + z) 2048) as [L2|L2].
  { eexists. apply enc2; try assumption; lia. }
  destruct (split_digit q1 64) as (q2 & y & -> & Hy); [discriminate|]. destruct (N.lt_ge_cases ((q2 * 64 + y) * 64 + z) 65536) as [L3|L3].
  { eexists. apply enc3; try assumption; lia. }
  destruct (split_digit q2 64) as (x & y' & -> & Hy'); [discriminate|]. eexists. apply enc4; try assumption; lia.
Qed.

Lemma encode_cp_ok : forall c, is_scalar c = true -> char_ok (encode_cp c) = true.
Proof. intros c H. exact (enc_char_ok (scalar_enc c H)). Qed.

Lemma decode_encode : forall c, is_scalar c = true -> decode_cp (encode_cp c) = c.
Proof. intros c H. exact (enc_decode (scalar_enc c H)). Qed.

Lemma encode_decode : forall ch, char_ok ch = true -> encode_cp (decode_cp ch) = ch.
Proof.
  intros ch H. destruct (char_ok_enc H) as [v E]. rewrite (enc_decode E). apply enc_encode. exact E.
Qed.

Lemma decode_scalar : forall ch, char_ok ch = true -> is_scalar (decode_cp ch) = true.
Proof.
  intros ch H. destruct (char_ok_enc H) as [v E]. rewrite (enc_decode E). exact (enc_scalar E).
Qed.

Lemma char_ok_nonnil : forall c, char_ok c = true -> c <> [].
Proof. intros c Hc ->. discriminate Hc. Qed.

Lemma char_ok_length : forall c, char_ok c = true -> (1 <= length c <= 4)%nat.
Proof. intros c Hc. destruct (char_ok_enc Hc) as [v []]; cbn [length]; lia. Qed.

Lemma char_ok_bytes : forall c, char_ok c = true -> Forall (fun b => b <= 244) c.
Proof. intros c Hc. destruct (char_ok_enc Hc) as [v []]; repeat constructor; lia. Qed.

Lemma char_ok_last_lt_192 : forall c, char_ok c = true -> last c 0 < 192.
Proof. intros c Hc. destruct (char_ok_enc Hc) as [v []]; cbn [last]; lia. Qed.

Lemma is_cont_tail y : y < 64 -> is_cont (128 + y) = true.
Proof. intros H. apply is_cont_iff. lia. Qed.

Lemma is_cont_lead b : b < 128 \/ 192 <= b -> is_cont b = false.
Proof. unfold is_cont. lia. Qed.

Lemma char_ok_lead : forall c, char_ok c = true ->
  exists b rest, c = b :: rest /\ is_cont b = false /\ width_of_lead b = len c /\
                 Forall (fun x => is_cont x = true) rest.
Proof.
  intros c Hc. destruct (char_ok_enc Hc) as [v []]; clear Hc; eexists _, _; (split; [reflexivity|]);
    (split; [apply is_cont_lead; lia|]); (split; [|auto using is_cont_tail]); apply width_of_lead_eq; unfold len; cbn [length]; lia.
Qed.

Lemma width_app : forall b rest r, char_ok (b :: rest) = true ->
  firstn (N.to_nat (width_of_lead b)) (b :: rest ++ r) = b :: rest /\
  skipn (N.to_nat (width_of_lead b)) (b :: rest ++ r) = r.
Proof.
  intros b rest r Hc. destruct (char_ok_lead _ Hc) as (b' & rest' & [= <- <-] & _ & Hw & _).
  rewrite Hw, len_to_nat. split; [apply (firstn_app_exact (b :: rest)) | apply (skipn_app_exact (b :: rest))].
Qed.

Lemma valid_bytes : forall t, Valid t -> Forall (fun b => b <= 244) t.
Proof.
  intros t [cs [Hcs ->]]. apply Forall_concat. eapply Forall_impl; [|exact Hcs]. exact char_ok_bytes.
Qed.

Lemma valid_last_lt_192 : forall t, Valid t -> t <> [] -> last t 0 < 192.
Proof.
  intros t Hv Hne. destruct (valid_unsnoc t Hv Hne) as (pre & c & -> & Hc & _).
  rewrite last_app_nonnil by (apply char_ok_nonnil; exact Hc). apply char_ok_last_lt_192. exact Hc.
Qed.

Lemma first_char_app : forall c r, char_ok c = true -> first_char (c ++ r) = c.
Proof. intros [|b rest] r Hc; [discriminate Hc|]. apply width_app. exact Hc. Qed.

Lemma valid_first_char : forall t, Valid t -> t <> [] ->
  exists rest, t = first_char t ++ rest /\ char_ok (first_char t) = true /\ Valid rest.
Proof.
  intros t [[|c cs] [Hcs ->]] Hne; [contradiction|]. apply Forall_cons_iff in Hcs as [Hc Hcs].
  cbn [concat]. rewrite first_char_app by exact Hc. exists (concat cs). auto using valid_concat.
Qed.

Lemma last_char_width_app : forall pre c, char_ok c = true -> last_char_width (pre ++ c) = len c.
Proof.
  intros pre c Hc. unfold last_char_width. rewrite rev_app_distr.
  destruct (char_ok_enc Hc) as [v []]; cbn [rev app]; rewrite ?is_cont_tail, ?is_cont_lead by (assumption || lia); reflexivity.
Qed.

Lemma last_char_app : forall pre c, char_ok c = true -> last_char (pre ++ c) = c.
Proof.
  intros pre c Hc. unfold last_char. rewrite last_char_width_app, len_to_nat, app_length by exact Hc.
  replace (length pre + length c - length c)%nat with (length pre) by lia. apply skipn_app_exact.
Qed.

Lemma valid_last_char : forall t, Valid t -> t <> [] ->
  exists pre, t = pre ++ last_char t /\ char_ok (last_char t) = true /\ Valid pre.
Proof.
  intros t Hv Hne. destruct (valid_unsnoc t Hv Hne) as (pre & c & -> & Hc & Hp).
  rewrite last_char_app by exact Hc. exists pre. auto.
Qed.

(* is_char_boundary over nat positions: inside the text, a boundary is a byte that is no continuation byte *)
Lemma boundary_iff t i : is_char_boundary t i = true <->
  (N.to_nat i <= length t /\ (0 < N.to_nat i < length t -> is_cont (nth (N.to_nat i) t 0%N) = false))%nat.
Proof.
  unfold is_char_boundary, nthN, len. rewrite <- negb_true_iff.
  destruct (i =? 0) eqn:E0; [lia|]. destruct (N.of_nat (length t) <=? i) eqn:E1; [lia|].
  split; [intros H; split; [lia | intros _; exact H] | intros [_ H]; apply H; lia].
Qed.

Lemma boundary_le_len : forall t i, is_char_boundary t i = true -> i <= len t.
Proof. intros t i H. apply boundary_iff in H. unfold len. lia. Qed.

Lemma char_ok_inner_cont : forall c n, char_ok c = true -> (0 < n < length c)%nat ->
  is_cont (nth n c 0) = true.
Proof.
  intros c n Hc Hn. destruct (char_ok_lead c Hc) as (b & rest & -> & _ & _ & Hrest).
  destruct n as [|n]; [lia|]. cbn [nth length] in *. rewrite Forall_forall in Hrest. apply Hrest, nth_In. lia.
Qed.

Lemma split_at_nat : forall cs n, Forall (fun c => char_ok c = true) cs ->
  (n <= length (concat cs) /\ (0 < n < length (concat cs) -> is_cont (nth n (concat cs) 0%N) = false))%nat ->
  Valid (firstn n (concat cs)) /\ Valid (skipn n (concat cs)).
Proof.
  intros cs n Hcs. revert n. induction Hcs as [|c cs Hc Hcs IH]; intros n [Hle Hn]; cbn [concat] in *.
  - rewrite firstn_nil, skipn_nil. split; apply valid_nil.
  - rewrite app_length in *. destruct (Nat.lt_ge_cases n (length c)) as [Hlt|Hge].
    + (* not inside c: its inner bytes are continuation bytes *)
      assert (n = 0)%nat as ->.
      { destruct n; [reflexivity|]. rewrite app_nth1, char_ok_inner_cont in Hn by (try exact Hc; lia). discriminate Hn. lia. }
      split; [apply valid_nil|]. apply valid_app; auto using valid_char, valid_concat.
    + rewrite firstn_app, skipn_app, firstn_all2, skipn_all2 by exact Hge.
      destruct (IH (n - length c)%nat) as [IH1 IH2].
      { split; [lia|]. intros H. rewrite app_nth2 in Hn by exact Hge. apply Hn. lia. }
      split; [apply valid_app; auto using valid_char | exact IH2].
Qed.

Lemma valid_split_boundary : forall t i, Valid t -> is_char_boundary t i = true ->
  Valid (firstn (N.to_nat i) t) /\ Valid (skipn (N.to_nat i) t).
Proof.
  intros t i [cs [Hcs ->]] Hb. apply split_at_nat; [exact Hcs|]. apply boundary_iff. exact Hb.
Qed.

Lemma valid_head_not_cont : forall t, Valid t -> is_cont (nth 0 t 0) = false.
Proof.
  intros t [[|c cs] [Hcs ->]]; [reflexivity|]. apply Forall_inv in Hcs.
  destruct (char_ok_lead c Hcs) as (b & rest & -> & Hb & _). exact Hb.
Qed.

Lemma valid_boundary_seam : forall a b, Valid a -> Valid b -> is_char_boundary (a ++ b) (len a) = true.
Proof.
  intros a b _ Hb. apply boundary_iff. rewrite len_to_nat, app_length. split; [lia|]. intros _.
  rewrite app_nth2, Nat.sub_diag by lia. apply valid_head_not_cont, Hb.
Qed.

Lemma chars_fuel_concat : forall cs fuel, Forall (fun c => char_ok c = true) cs ->
  (length cs <= fuel)%nat -> chars_fuel fuel (concat cs) = cs.
Proof.
  intros cs fuel Hcs. revert fuel.
  induction Hcs as [|[|b rest] cs Hc Hcs IH]; intros [|f] Hf; try reflexivity; try discriminate Hc; cbn [length] in Hf; [lia|].
  cbn [concat app chars_fuel]. destruct (width_app b rest (concat cs) Hc) as [-> ->]. rewrite IH by lia. reflexivity.
Qed.

Lemma concat_length_ge : forall cs, Forall (fun c => char_ok c = true) cs ->
  (length cs <= length (concat cs))%nat.
Proof.
  induction 1 as [|c cs Hc _ IH]; [reflexivity|].
  cbn [concat length]. rewrite app_length. pose proof (char_ok_length c Hc). lia.
Qed.

Lemma chars_of_concat : forall cs, Forall (fun c => char_ok c = true) cs -> chars_of (concat cs) = cs.
Proof. intros cs Hcs. apply chars_fuel_concat; auto using concat_length_ge. Qed.

Lemma valid_chars_of : forall t, Valid t ->
  Forall (fun c => char_ok c = true) (chars_of t) /\ concat (chars_of t) = t.
Proof. intros t [cs [Hcs ->]]. rewrite chars_of_concat by exact Hcs. auto. Qed.

Lemma lead_class a rest : char_ok (a :: rest) = true ->
  (a <? 128) = (length rest =? 0)%nat /\ in_range 194 223 a = (length rest =? 1)%nat /\
  in_range 224 239 a = (length rest =? 2)%nat /\ in_range 240 244 a = (length rest =? 3)%nat.
Proof.
  intros H. destruct rest as [|b [|c [|d [|e r]]]]; cbn [char_ok] in H; try discriminate H;
    unfold in_range in *; cbn [length Nat.eqb]; lia.
Qed.

(* one step of the automaton, by the length the lead byte announces: what it tests of that many bytes is char_ok *)
Lemma utf8_valid_fuel_S f a r : utf8_valid_fuel (S f) (a :: r) =
  if a <? 128 then utf8_valid_fuel f r
  else if in_range 194 223 a then match r with b :: r' => char_ok [a; b] && utf8_valid_fuel f r' | _ => false end
  else if in_range 224 239 a then match r with b :: c :: r' => char_ok [a; b; c] && utf8_valid_fuel f r' | _ => false end
  else match r with b :: c :: d :: r' => char_ok [a; b; c; d] && utf8_valid_fuel f r' | _ => false end.
Proof.
  cbn [utf8_valid_fuel char_ok].
  (* the four single lead bytes first: there every test on a computes *)
  destruct (N.eqb_spec a 224) as [->|_].
  { destruct r as [|b [|c r]]; try reflexivity. destruct (in_range 160 191 b); reflexivity. }
  destruct (N.eqb_spec a 240) as [->|_].
  { destruct r as [|b [|c [|d r]]]; try reflexivity. destruct (in_range 144 191 b); reflexivity. }
  destruct (N.eqb_spec a 237) as [->|_]; [destruct r as [|b [|c r]]; reflexivity|].
  destruct (N.eqb_spec a 244) as [->|_]; [destruct r as [|b [|c [|d r]]]; reflexivity|].
  destruct (a <? 128); [reflexivity|]. destruct (in_range 194 223 a); [reflexivity|].
  destruct (in_range 225 236 a || in_range 238 239 a) eqn:E3.
  { replace (in_range 224 239 a) with true by (unfold in_range in *; lia).
    destruct r as [|b [|c r]]; try reflexivity. destruct (in_range 128 191 b); reflexivity. }
  destruct (in_range 241 243 a) eqn:E4.
  { replace (in_range 224 239 a) with false by (unfold in_range in *; lia).
    destruct r as [|b [|c [|d r]]]; try reflexivity. destruct (in_range 128 191 b); reflexivity. }
  destruct (in_range 224 239 a); destruct r as [|b [|c [|d r]]]; reflexivity.
Qed.

Lemma utf8_valid_fuel_sound : forall f t, utf8_valid_fuel f t = true -> Valid t.
Proof.
  induction f as [|f IH]; intros [|a r] H; try apply valid_nil; [discriminate H|].
  rewrite utf8_valid_fuel_S in H. destruct (a <? 128) eqn:E1.
  { apply (valid_app [a]); [apply valid_char; exact E1 | apply IH; exact H]. }
  (* the three multi-byte classes alike: peel off the bytes the class asks for *)
  destruct (in_range 194 223 a); [|destruct (in_range 224 239 a)];
    repeat (destruct r as [|? r]; [discriminate H|]); apply andb_true_iff in H as [Hc H];
    exact (valid_app _ _ (valid_char _ Hc) (IH _ H)).
Qed.

Lemma utf8_valid_fuel_app f c r : char_ok c = true -> utf8_valid_fuel (S f) (c ++ r) = utf8_valid_fuel f r.
Proof.
  destruct c as [|a rest]; [discriminate|]. intros Hc. destruct (lead_class a rest Hc) as (E1 & E2 & E3 & _).
  cbn [app]. rewrite utf8_valid_fuel_S, E1, E2, E3.
  destruct rest as [|b [|c [|d [|e rest]]]]; try discriminate Hc; cbn [length Nat.eqb app]; rewrite ?Hc; reflexivity.
Qed.

Lemma utf8_valid_fuel_complete : forall cs f, Forall (fun c => char_ok c = true) cs ->
  (length cs <= f)%nat -> utf8_valid_fuel f (concat cs) = true.
Proof.
  intros cs f Hcs. revert f. induction Hcs as [|c cs Hc Hcs IH]; intros [|f] Hf; try reflexivity; cbn [length] in Hf; [lia|].
  cbn [concat]. rewrite utf8_valid_fuel_app by exact Hc. apply IH. lia.
Qed.

Theorem utf8_valid_iff : forall t, utf8_valid t = true <-> Valid t.
Proof.
  intros t. split; [apply utf8_valid_fuel_sound|]. intros [cs [Hcs ->]].
  apply utf8_valid_fuel_complete; auto using concat_length_ge.
Qed.

Print Assumptions utf8_valid_iff.
Print Assumptions valid_split_boundary.
Print Assumptions encode_decode.
Print Assumptions valid_chars_of.
