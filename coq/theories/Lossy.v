(* Lossy.v — the decoders behind from_utf8_lossy and from_utf16(_lossy), modelled on bytes / code units:
   next_char is one step of core::str::Utf8Chunks (a complete well-formed scalar, or a maximal ill-formed subpart:
   the lead byte and the continuation bytes accepted so far); lossy replaces every ill-formed subpart by U+FFFD;
   chunks_of groups the steps into the (valid piece, invalid-follows) chunks the crate's loop consumes.
   utf16_decode is char::decode_utf16: surrogate pairs combine, lone surrogates are errors.
   Both are run against std on the sweeps of the C16 check (extraction + `driver --utf8`). *)
From Coq Require Import Lia Arith ZArith List Bool.
From LS Require Import Base Utf8 Utf8Spec Utf8Facts.
Import ListNotations.
Open Scope N_scope.

Definition cont (b : N) : bool := in_range 128 191 b.
Definition ok2_3 (a b : N) : bool :=
  ((a =? 224) && in_range 160 191 b) || ((in_range 225 236 a || in_range 238 239 a) && in_range 128 191 b)
  || ((a =? 237) && in_range 128 159 b).
Definition ok2_4 (a b : N) : bool :=
  ((a =? 240) && in_range 144 191 b) || (in_range 241 243 a && in_range 128 191 b) || ((a =? 244) && in_range 128 143 b).

(* (bytes consumed, well-formed?, rest) *)
Definition next_char (t : list N) : option (list N * bool * list N) :=
  match t with
  | [] => None
  | a :: r =>
      if a <? 128 then Some ([a], true, r)
      else if in_range 194 223 a then
        match r with
        | b :: r1 => if cont b then Some ([a; b], true, r1) else Some ([a], false, r)
        | [] => Some ([a], false, r)
        end
      else if in_range 224 239 a then
        match r with
        | b :: r1 =>
            if ok2_3 a b then
              match r1 with
              | c :: r2 => if cont c then Some ([a; b; c], true, r2) else Some ([a; b], false, r1)
              | [] => Some ([a; b], false, r1)
              end
            else Some ([a], false, r)
        | [] => Some ([a], false, r)
        end
      else if in_range 240 244 a then
        match r with
        | b :: r1 =>
            if ok2_4 a b then
              match r1 with
              | c :: r2 =>
                  if cont c then
                    match r2 with
                    | d :: r3 => if cont d then Some ([a; b; c; d], true, r3) else Some ([a; b; c], false, r2)
                    | [] => Some ([a; b; c], false, r2)
                    end
                  else Some ([a; b], false, r1)
              | [] => Some ([a; b], false, r1)
              end
            else Some ([a], false, r)
        | [] => Some ([a], false, r)
        end
      else Some ([a], false, r)
  end.

Definition REPL : list N := [239; 191; 189].     (* U+FFFD *)

Fixpoint lossy_fuel (f : nat) (t : list N) : list N :=
  match f with
  | O => []
  | S f' =>
      match next_char t with
      | None => []
      | Some (c, ok, r) => (if ok then c else REPL) ++ lossy_fuel f' r
      end
  end.
Definition lossy (t : list N) : list N := lossy_fuel (length t) t.

(* the chunks of Utf8Chunks: (valid piece, is it followed by an ill-formed subpart) *)
Fixpoint chunks_fuel (f : nat) (t acc : list N) : list (list N * bool) :=
  match f with
  | O => match acc with [] => [] | _ => [(acc, false)] end
  | S f' =>
      match next_char t with
      | None => match acc with [] => [] | _ => [(acc, false)] end
      | Some (c, true, r) => chunks_fuel f' r (acc ++ c)
      | Some (c, false, r) => (acc, true) :: chunks_fuel f' r []
      end
  end.
Definition chunks_of (t : list N) : list (list N * bool) := chunks_fuel (length t) t [].
Definition chunks_text (cs : list (list N * bool)) : list N :=
  concat (map (fun c : list N * bool => fst c ++ (if snd c then REPL else [])) cs).

(* a leaf of next_char: the equation is split, and what remains is the claim about the flag *)
Local Ltac leaf := intros [= <- <- <-]; split; [reflexivity|]; split; [cbn [length]; repeat constructor|].

Lemma next_char_split {t c ok r} : next_char t = Some (c, ok, r) ->
  c ++ r = t /\ (1 <= length c <= 4)%nat /\ (ok = true -> char_ok c = true).
Proof.
  destruct t as [|a t]; [discriminate|]. cbn [next_char].
  destruct (a <? 128) eqn:E1; [leaf; intros _; exact E1|].
  destruct (in_range 194 223 a) eqn:E2.
  { destruct t as [|b t]; [leaf; discriminate|]. destruct (cont b) eqn:E3; leaf; [intros _|discriminate].
    cbn [char_ok]. rewrite E2. exact E3. }
  destruct (in_range 224 239 a).
  { destruct t as [|b t]; [leaf; discriminate|]. destruct (ok2_3 a b) eqn:E3; [|leaf; discriminate].
    destruct t as [|c0 t]; [leaf; discriminate|]. destruct (cont c0) eqn:E4; leaf; [intros _|discriminate].
    change (ok2_3 a b && cont c0 = true). rewrite E3. exact E4. }
  destruct (in_range 240 244 a); [|leaf; discriminate].
  destruct t as [|b t]; [leaf; discriminate|]. destruct (ok2_4 a b) eqn:E3; [|leaf; discriminate].
  destruct t as [|c0 t]; [leaf; discriminate|]. destruct (cont c0) eqn:E4; [|leaf; discriminate].
  destruct t as [|d t]; [leaf; discriminate|]. destruct (cont d) eqn:E5; leaf; [intros _|discriminate].
  change (ok2_4 a b && cont c0 && cont d = true). rewrite E3, E4. exact E5.
Qed.

Lemma next_char_ok c r : char_ok c = true -> next_char (c ++ r) = Some (c, true, r).
Proof.
  destruct c as [|a rest]; [discriminate|]. intros H. destruct (lead_class a rest H) as (E1 & E2 & E3 & E4).
  cbn [app next_char]. rewrite E1, E2, E3, E4.
  destruct rest as [|b [|c [|d [|e rest]]]]; try discriminate H; cbn [length Nat.eqb app]; [reflexivity|..].
  - apply andb_true_iff in H as [_ H]. unfold cont. rewrite H. reflexivity.
  - change (ok2_3 a b && cont c = true) in H. apply andb_true_iff in H as [-> ->]. reflexivity.
  - change (ok2_4 a b && cont c && cont d = true) in H. apply andb_true_iff in H as [[-> ->]%andb_true_iff ->]. reflexivity.
Qed.

Lemma repl_ok : char_ok REPL = true. Proof. reflexivity. Qed.

Lemma lossy_fuel_valid f : forall t, Valid (lossy_fuel f t).
Proof.
  induction f as [|f IH]; intros t; cbn [lossy_fuel]; [apply valid_nil|].
  destruct (next_char t) as [[[c ok] r]|] eqn:E; [|apply valid_nil].
  destruct (next_char_split E) as (_ & _ & Hok).
  apply valid_app; [|apply IH]. apply valid_char. destruct ok; auto using repl_ok.
Qed.
Theorem lossy_valid t : Valid (lossy t).
Proof. apply lossy_fuel_valid. Qed.

Lemma lossy_fuel_id cs : forall f, Forall (fun c => char_ok c = true) cs -> (length cs <= f)%nat ->
  lossy_fuel f (concat cs) = concat cs.
Proof.
  intros f Hcs. revert f. induction Hcs as [|c cs Hc _ IH]; intros [|f] Hf; try reflexivity; cbn [length] in Hf; [lia|].
  cbn [concat lossy_fuel]. rewrite (next_char_ok c (concat cs) Hc), IH by lia. reflexivity.
Qed.
Theorem lossy_id t : Valid t -> lossy t = t.
Proof.
  intros (cs & Hcs & ->). apply lossy_fuel_id; auto using concat_length_ge.
Qed.

Lemma lossy_fuel_len f : forall t, (length (lossy_fuel f t) <= 3 * length t)%nat.
Proof.
  induction f as [|f IH]; intros t; cbn [lossy_fuel]; [cbn; lia|].
  destruct (next_char t) as [[[c ok] r]|] eqn:E; [|cbn; lia].
  destruct (next_char_split E) as (Hs & Hc & _). rewrite app_length. specialize (IH r).
  rewrite <- Hs, app_length. destruct ok; unfold REPL; cbn [length]; lia.
Qed.
Theorem lossy_len t : (length (lossy t) <= 3 * length t)%nat.
Proof. apply lossy_fuel_len. Qed.

(* with enough fuel the whole input is consumed: the fuel in [lossy] is not a truncation *)
Lemma lossy_fuel_more f : forall t, (length t <= f)%nat -> lossy_fuel (S f) t = lossy_fuel f t.
Proof.
  induction f as [|f IH]; intros t Hf.
  - destruct t; [reflexivity|cbn in Hf; lia].
  - cbn [lossy_fuel]. destruct (next_char t) as [[[c ok] r]|] eqn:E; [|reflexivity].
    destruct (next_char_split E) as (Hs & Hc & _). f_equal.
    change (lossy_fuel (S f) r = lossy_fuel f r). apply IH.
    rewrite <- Hs, app_length in Hf. lia.
Qed.

Lemma chunks_fuel_text f : forall t acc, chunks_text (chunks_fuel f t acc) = acc ++ lossy_fuel f t.
Proof.
  induction f as [|f IH]; intros t acc; cbn [chunks_fuel lossy_fuel].
  - destruct acc; cbn; rewrite ?app_nil_r; reflexivity.
  - destruct (next_char t) as [[[c ok] r]|] eqn:E.
    + destruct ok.
      * rewrite IH, app_assoc. reflexivity.
      * unfold chunks_text. cbn [map concat fst snd]. fold (chunks_text (chunks_fuel f r [])). rewrite IH.
        cbn [app]. rewrite <- app_assoc. reflexivity.
    + destruct acc; cbn; rewrite ?app_nil_r; reflexivity.
Qed.
Theorem chunks_of_text t : chunks_text (chunks_of t) = lossy t.
Proof. unfold chunks_of, lossy. rewrite chunks_fuel_text. reflexivity. Qed.

Lemma chunks_fuel_valid f : forall t acc, Valid acc -> Forall (fun c => Valid (fst c)) (chunks_fuel f t acc).
Proof.
  induction f as [|f IH]; intros t acc Ha; cbn [chunks_fuel].
  - destruct acc; constructor; auto.
  - destruct (next_char t) as [[[c ok] r]|] eqn:E.
    + destruct (next_char_split E) as (_ & _ & Hok). destruct ok.
      * apply IH. apply valid_app; [exact Ha|apply valid_char; auto].
      * constructor; [exact Ha|]. apply IH. apply valid_nil.
    + destruct acc; constructor; auto.
Qed.
Theorem chunks_of_valid t : Forall (fun c => Valid (fst c)) (chunks_of t).
Proof. apply chunks_fuel_valid. apply valid_nil. Qed.

Definition is_high (u : N) : bool := in_range 55296 56319 u.    (* D800..DBFF *)
Definition is_low (u : N) : bool := in_range 56320 57343 u.     (* DC00..DFFF *)
Definition combine (h l : N) : N := 65536 + (h - 55296) * 1024 + (l - 56320).

(* char::decode_utf16: Some scalar / None for an unpaired surrogate *)
Fixpoint utf16_decode (t : list N) : list (option N) :=
  match t with
  | [] => []
  | u :: r =>
      if is_high u then
        match r with
        | l :: r' => if is_low l then Some (combine u l) :: utf16_decode r' else None :: utf16_decode r
        | [] => [None]
        end
      else if is_low u then None :: utf16_decode r
      else Some u :: utf16_decode r
  end.

Definition utf16_encode (c : N) : list N :=
  if c <? 65536 then [c] else [55296 + (c - 65536) / 1024; 56320 + (c - 65536) mod 1024].

Lemma unit_scalar u : u < 65536 -> is_scalar u = negb (is_high u || is_low u).
Proof. unfold is_scalar, is_high, is_low, in_range. lia. Qed.
Lemma combine_scalar h l : is_high h = true -> is_low l = true -> is_scalar (combine h l) = true.
Proof. unfold is_scalar, is_high, is_low, in_range, combine. lia. Qed.

Lemma list_ind2 {A} (P : list A -> Prop) :
  P [] -> (forall x, P [x]) -> (forall x y l, P l -> P (y :: l) -> P (x :: y :: l)) -> forall l, P l.
Proof.
  intros H0 H1 H2. enough (H : forall l, P l /\ forall x, P (x :: l)) by apply H.
  induction l as [|y l [IH1 IH2]]; auto.
Qed.

Lemma utf16_decode_scalars t : Forall (fun u => u < 65536) t ->
  Forall (fun o => match o with Some c => is_scalar c = true | None => True end) (utf16_decode t).
Proof.
  induction t as [|u|u l t IH1 IH2] using list_ind2; intros Ht; [constructor|..];
    inversion Ht as [|? ? Hu Ht']; subst; pose proof (unit_scalar u Hu) as Su.
  - cbn [utf16_decode]. destruct (is_high u); [repeat constructor|]. destruct (is_low u); repeat constructor. exact Su.
  - specialize (IH1 (Forall_inv_tail Ht')). specialize (IH2 Ht'). cbn [utf16_decode] in IH2 |- *.
    destruct (is_high u) eqn:Eh; [destruct (is_low l) eqn:El | destruct (is_low u)]; constructor; auto using combine_scalar.
Qed.

Lemma utf16_decode_encode c r : is_scalar c = true -> utf16_decode (utf16_encode c ++ r) = Some c :: utf16_decode r.
Proof.
  intros Hc. unfold utf16_encode. destruct (N.ltb_spec c 65536) as [L|L]; cbn [app utf16_decode].
  - rewrite (unit_scalar c L) in Hc. apply negb_true_iff, orb_false_iff in Hc. destruct Hc as [-> ->]. reflexivity.
  - apply is_scalar_iff in Hc. destruct (@payload 65536 1048576 c) as (d & -> & Hd); [lia|]. replace (65536 + d - 65536) with d by lia. clear Hc L.
    destruct (split_digit d 1024) as (q & m & -> & Hm); [discriminate|]. rewrite div_digit, mod_digit by assumption.
    replace (is_high (55296 + q)) with true by (unfold is_high, in_range; lia).
    replace (is_low (56320 + m)) with true by (unfold is_low, in_range; lia).
    do 2 f_equal. unfold combine. lia.
Qed.

Lemma utf16_round_trip cs : Forall (fun c => is_scalar c = true) cs ->
  utf16_decode (concat (map utf16_encode cs)) = map Some cs.
Proof.
  induction 1 as [|c cs Hc _ IH]; [reflexivity|]. cbn [map concat]. rewrite utf16_decode_encode, IH by exact Hc. reflexivity.
Qed.
