(* PushLoop.v — the amortisation half of C12: an append loop of any length costs O(log n) allocator requests and
   O(n) copied bytes.
   gstep is the (length, capacity, requests, copied) bookkeeping of one append to an exclusively owned string;
   push_loop_model shows that the modelled crate follows it exactly (for every history of successful appends);
   gsim_bound is the arithmetic: after k requests the length is at least (3/2)^((k-1)/2), and the bytes copied by
   all reallocations together are at most 6 times the final length. *)
From Coq Require Import Lia Arith.
From LS Require Import Base ListFacts Utf8Spec Cmd Impl Growth Inv Exec Specs Specs2 WF Refine Main Derived GrowSim.
From LSGen Require Import GenSrc.
Open Scope N_scope.

Lemma gstep_len st a : gl (gstep st a) = gl st + a.
Proof. unfold gstep. destruct (_ <=? _); reflexivity. Qed.
Lemma gsim_snoc st l a : gsim st (l ++ [a]) = gstep (gsim st l) a.
Proof. unfold gsim. rewrite fold_left_app. reflexivity. Qed.

(* (3/2)^(k/2) <= x *)
Definition half (k : nat) : N := N.of_nat (Nat.div2 k).
Definition pow32_le (k : nat) (x : N) : Prop := 3 ^ half k <= 2 ^ half k * x.

Lemma pow32_le_mono k x y : x <= y -> pow32_le k x -> pow32_le k y.
Proof. unfold pow32_le. intros H Hx. apply (N.le_trans _ _ _ Hx), N.mul_le_mono_l, H. Qed.

Lemma pow32_le_low k x : (k <= 1)%nat -> 1 <= x -> pow32_le k x.
Proof. intros Hk Hx. unfold pow32_le. replace (half k) with 0 by (destruct k as [|[|k]]; [reflexivity..|lia]). lia. Qed.

Lemma pow32_le_SS k x y : 3 * x <= 2 * y -> pow32_le k x -> pow32_le (S (S k)) y.
Proof.
  unfold pow32_le, half. cbn [Nat.div2]. rewrite Nat2N.inj_succ, !N.pow_succ_r'. intros H Hx.
  apply N.le_trans with (3 * (2 ^ N.of_nat (Nat.div2 k) * x)); [apply N.mul_le_mono_l, Hx|].
  rewrite (N.mul_comm 3), <- !N.mul_assoc, (N.mul_comm 2), <- !N.mul_assoc.
  apply N.mul_le_mono_l. lia.
Qed.

Lemma max_len_thrice x : x <= MAX_LEN -> 3 * x <= USIZE_MAX.
Proof. unfold MAX_LEN, USIZE_MAX. lia. Qed.

(* a growing append leaves a capacity of at least 3/2 of the old length (rounded down) *)
Lemma growth_lower l a : 3 * (l + a) <= USIZE_MAX -> 3 * l <= 2 * amortized_growth l a + 1.
Proof. intros H. rewrite growth_exact by lia. lia. Qed.

(* the invariant: u is the length before the last growing append (the bytes it copied), v the same for the one before *)
Definition ginv (st : gst) (u v : N) : Prop :=
  (u <= gl st /\ 3 * u <= 2 * gc st + 1 /\ 3 * v <= 2 * gl st /\ gcp st <= 3 * u + 3 * v) /\
  (forall j, gk st = S j -> pow32_le j (gl st)) /\ (forall j, gk st = S (S j) -> pow32_le j u).

Lemma ginv_init l c : ginv {| gl := l; gc := c; gk := 0; gcp := 0 |} 0 0.
Proof. split; [cbn; lia | split; intros j [=]]. Qed.

Lemma ginv_step st u v a :
  ginv st u v -> 3 * (gl st + a) <= USIZE_MAX -> exists u' v', ginv (gstep st a) u' v'.
Proof.
  intros (Hl & HP & HQ) Hno. unfold gstep.
  destruct (N.leb_spec (gl st + a) (gc st)) as [Hfit|Hgrow].
  - exists u, v. split; [cbn [gl gc gk gcp]; lia|]. split; [|exact HQ].
    intros j Hj. apply (pow32_le_mono _ (gl st)); [cbn [gl]; lia | exact (HP j Hj)].
  - pose proof (growth_lower (gl st) a Hno) as Hc.
    exists (gl st), u. split; [cbn [gl gc gk gcp]; lia|]. cbn [gl gk]. split; intros j [= Hj].
    + destruct j as [|[|j]]; [apply pow32_le_low; lia..|]. apply (pow32_le_SS j u); [lia | exact (HQ j Hj)].
    + exact (HP j Hj).
Qed.

Lemma gsim_inv st u v l :
  ginv st u v -> 3 * gl (gsim st l) <= USIZE_MAX -> exists u' v', ginv (gsim st l) u' v'.
Proof.
  intros HI. induction l as [|a l IH] using rev_ind; intros Hno; [exists u, v; exact HI|].
  rewrite gsim_snoc in *. rewrite gstep_len in Hno. destruct IH as (u1 & v1 & HI1); [lia|].
  exact (ginv_step _ u1 v1 a HI1 Hno).
Qed.

(* the bound: k requests force a final length of at least (3/2)^((k-1)/2); all copies together are at most 6n *)
Theorem gsim_bound l0 c0 pieces :
  let st := gsim {| gl := l0; gc := c0; gk := 0; gcp := 0 |} pieces in
  3 * gl st <= USIZE_MAX ->
  ((1 <= gk st)%nat -> 3 ^ half (gk st - 1) <= 2 ^ half (gk st - 1) * gl st) /\ gcp st <= 6 * gl st.
Proof.
  intros st Hno.
  destruct (gsim_inv _ 0 0 pieces (ginv_init l0 c0) Hno) as (u & v & Hl & HP & _).
  fold st in Hl, HP. split; [|lia].
  destruct (gk st) as [|k]; [lia|]. intros _. rewrite Nat.sub_succ, Nat.sub_0_r. exact (HP k eq_refl).
Qed.

(* (3/2)^h is increasing, so the bound reads as a logarithm *)
Lemma pow32_down (d h x : N) : 3 ^ (h + d) <= 2 ^ (h + d) * x -> 3 ^ h <= 2 ^ h * x.
Proof.
  rewrite !N.pow_add_r. intros H.
  assert (Hd : 2 ^ d <= 3 ^ d) by (apply N.pow_le_mono_l; lia).
  apply (N.mul_le_mono_pos_r _ _ (2 ^ d)); [apply N.neq_0_lt_0, N.pow_nonzero; lia|].
  apply N.le_trans with (3 ^ h * 3 ^ d); [apply N.mul_le_mono_l, Hd|]. lia.
Qed.

(* a concrete reading: growing a string to at most 4 MiB one piece at a time makes at most 76 allocator requests *)
Corollary gsim_4MiB l0 c0 pieces :
  let st := gsim {| gl := l0; gc := c0; gk := 0; gcp := 0 |} pieces in
  gl st <= 4194304 -> (gk st <= 76)%nat.
Proof.
  intros st Hn. destruct (le_lt_dec (gk st) 76) as [|Hk]; [assumption|exfalso].
  assert (Hno : 3 * gl st <= USIZE_MAX) by (unfold USIZE_MAX; lia).
  destruct (gsim_bound l0 c0 pieces Hno) as (Hb & _). fold st in Hb. specialize (Hb ltac:(lia)).
  assert (Hh : (38 <= Nat.div2 (gk st - 1))%nat).
  { destruct (gk st) as [|k]; [lia|]. replace (S k - 1)%nat with k by lia.
    pose proof (Nat.div2_odd k) as E. destruct (Nat.odd k); cbn [Nat.b2n] in E; lia. }
  unfold half in Hb.
  replace (N.of_nat (Nat.div2 (gk st - 1))) with (38 + N.of_nat (Nat.div2 (gk st - 1) - 38)) in Hb by lia.
  apply pow32_down in Hb.
  assert (2 ^ 38 * 4194304 < 3 ^ 38) by (vm_compute; reflexivity).
  assert (2 ^ 38 * gl st <= 2 ^ 38 * 4194304) by (apply N.mul_le_mono_l; exact Hn).
  lia.
Qed.

Definition push_ops (m : mode) (i : nat) (pieces : list (list N)) : list op := map (OPushStr m i) pieces.

(* slot i holds an exclusively owned string with the length and capacity of [st], (gk st) allocator requests after n0 *)
Definition follows (w : world) (i : nat) (st : gst) (n0 : N) : Prop :=
  exists r, nth_error (pool w) i = Some (Some r) /\ WF w /\ xcl (wmem w) r
            /\ repr_len r = gl st /\ cap_of (wmem w) r = gc st /\ nreq (wmem w) = n0 + N.of_nat (gk st).

Lemma push_step w m i s w' st n0 :
  follows w i st n0 -> Valid s -> s <> [] -> exec w (OPushStr m i s) = (w', OkUnit) ->
  follows w' i (gstep st (len s)) n0.
Proof.
  intros (r & Hi & HW & Hex & El & Ec & En) Hv Hne He.
  destruct (inplace_live HW (push_str_op m s Hv) He Hi) as (r' & Hi' & _ & (ok & HP & ->%fin_OkUnit) & HW' & _).
  pose proof (pp_step HP) as S. exists r'. split; [exact Hi'|]. split; [exact HW'|].
  split; [exact (conj (same_env_quiet _ _ (step_env S) (proj1 Hex)) (pp_excl HP eq_refl Hne))|].
  assert (Hlen : repr_len r' = repr_len r + len s).
  { rewrite <- (text_len (wmem w') r' (wf_handle HW' Hi')), (pp_ok HP eq_refl), len_app.
    rewrite (text_len (wmem w) r (wf_handle HW Hi)). reflexivity. }
  unfold gstep. rewrite <- El, <- Ec.
  destruct (N.leb_spec (repr_len r + len s) (cap_of (wmem w) r)) as [Hfit|Hgrow]; cbn [gl gc gk].
  - destruct (pp_fits HP Hex Hfit) as (_ & Hn & _ & _).
    split; [exact Hlen|]. split; [exact (pp_cap HP Hex Hfit)|]. lia.
  - destruct (pp_nofit HP eq_refl Hne Hex Hgrow) as (Hn & Hc).
    split; [exact Hlen|]. split; [exact Hc|]. lia.
Qed.

(* every history of successful non-empty appends to an exclusively owned slot follows gsim exactly *)
Theorem push_loop_model m i pieces : forall w r w' outs,
  WF w -> Forall (fun s => Valid s /\ s <> []) pieces ->
  nth_error (pool w) i = Some (Some r) -> xcl (wmem w) r ->
  execs w (push_ops m i pieces) = (w', outs) -> Forall (fun o => o = OkUnit) outs ->
  exists r', nth_error (pool w') i = Some (Some r') /\ WF w' /\ xcl (wmem w') r'
    /\ let st := gsim {| gl := repr_len r; gc := cap_of (wmem w) r; gk := 0; gcp := 0 |} (map len pieces) in
       repr_len r' = gl st /\ cap_of (wmem w') r' = gc st /\ nreq (wmem w') = nreq (wmem w) + N.of_nat (gk st).
Proof.
  intros w r w' outs HW Hp Hi Hex He Ho. set (st0 := {| gl := repr_len r; gc := cap_of (wmem w) r; gk := 0; gcp := 0 |}).
  change (follows w' i (gsim st0 (map len pieces)) (nreq (wmem w))).
  revert w' outs He Ho. induction pieces as [|s pieces IH] using rev_ind; intros w' outs He Ho.
  - injection He as <- <-. exists r. cbn [map gsim fold_left st0 gl gc gk]. rewrite N.add_0_r. auto 7.
  - apply Forall_app in Hp as (Hp & (Hv & Hne)%Forall_inv).
    unfold push_ops in He. rewrite map_app in He. cbn [map] in He. rewrite execs_snoc in He. fold (push_ops m i pieces) in He.
    destruct (execs w (push_ops m i pieces)) as [w1 outs1]. destruct (exec w1 (OPushStr m i s)) as [w2 out] eqn:E2.
    injection He as <- <-. apply Forall_app in Ho as (Ho & Hout%Forall_inv). rewrite Hout in E2. rewrite map_app. cbn [map]. rewrite gsim_snoc.
    exact (push_step w1 m i s w2 _ _ (IH Hp w1 outs1 eq_refl Ho) Hv Hne E2).
Qed.

(* the two together: the property's amortisation claim for the modelled crate *)
Theorem push_loop_cost m i pieces w r w' outs r' :
  WF w -> Forall (fun s => Valid s /\ s <> []) pieces ->
  nth_error (pool w) i = Some (Some r) -> xcl (wmem w) r ->
  execs w (push_ops m i pieces) = (w', outs) -> Forall (fun o => o = OkUnit) outs ->
  nth_error (pool w') i = Some (Some r') ->
  let k := N.to_nat (nreq (wmem w') - nreq (wmem w)) in
  (1 <= k)%nat -> 3 ^ half (k - 1) <= 2 ^ half (k - 1) * repr_len r'.
Proof.
  intros HW Hp Hi Hex He Ho Hi' k Hk.
  destruct (push_loop_model m i pieces w r w' outs HW Hp Hi Hex He Ho) as (r2 & Hi2 & HW2 & _ & Hl & _ & Hn).
  rewrite Hi' in Hi2. injection Hi2 as <-. cbv zeta in Hl, Hn.
  set (st := gsim _ (map len pieces)) in *.
  assert (Ek : k = gk st) by (unfold k; lia).
  assert (Hno : 3 * gl st <= USIZE_MAX).
  { rewrite <- Hl. apply max_len_thrice, (handle_len_bound (wmem w') _ r' (wf_mi w' HW2) (wf_handle HW2 Hi')). }
  destruct (gsim_bound (repr_len r) (cap_of (wmem w) r) (map len pieces) Hno) as (Hb & _). fold st in Hb.
  rewrite Ek, Hl. apply Hb. lia.
Qed.
