(* Decode.v — the decoding constructors (lib.rs:157-251) as operation sequences over the chunk / char lists that
   std's decoders (utf8_chunks, decode_utf16: the same code on the String side) produce. *)
From LS Require Import Base Utf8 Utf8Spec Exec WF Spec Main.
Open Scope N_scope.

Definition REPLACEMENT : N := 65533.          (* char::REPLACEMENT_CHARACTER, encodes to EF BF BD *)
Definition chunk := (list N * bool)%type.     (* valid piece, and whether an invalid piece follows *)

(* from_utf8_lossy: with_capacity(buf.len()), then per chunk push_str(valid) and push(U+FFFD) if invalid is non-empty *)
Definition lossy_chunk_ops (i : nat) (c : chunk) : list op :=
  OPushStr Plain i (fst c) :: (if snd c then [OPush Plain i REPLACEMENT] else @nil op).
Definition lossy_ops (i : nat) (n : N) (cs : list chunk) : list op :=
  OWithCapacity Plain n :: flat_map (lossy_chunk_ops i) cs.
Definition lossy_text (cs : list chunk) : list N :=
  concat (map (fun c : chunk => fst c ++ (if snd c then encode_cp REPLACEMENT else @nil N)) cs).

(* from_utf16 on a fully decodable input / from_utf16_lossy (with lone surrogates already replaced): one push per char *)
Definition chars_ops (i : nat) (n : N) (cs : list N) : list op := OWithCapacity Plain n :: map (OPush Plain i) cs.

Lemma spec_execs_fst st ops p :
  fst (spec_execs st p ops) = fold_left (fun p o => fst (spec_exec st p o)) ops p.
Proof.
  unfold spec_execs. generalize (@nil outcome) at 2. revert p.
  induction ops as [|o ops IH]; intros p acc; cbn [fold_left]; [reflexivity|].
  destruct (spec_exec st p o) as [p1 out]. apply IH.
Qed.

(* Spec on the lossy operation sequence: what String::from_utf8_lossy builds from the same chunks *)
Lemma spec_lossy st n cs : fst (spec_execs st [] (lossy_ops 0 n cs)) = [Some (lossy_text cs)].
Proof.
  rewrite spec_execs_fst. unfold lossy_ops. cbn [fold_left spec_exec app fst]. change (lossy_text cs) with ([] ++ lossy_text cs).
  generalize (@nil N). induction cs as [|[v inv] cs IH]; intros T.
  - cbn. rewrite app_nil_r. reflexivity.
  - unfold lossy_text. destruct inv; cbn [flat_map lossy_chunk_ops app fold_left spec_exec son sget nth_error upd map concat fst snd];
      rewrite IH, <- ?app_assoc; reflexivity.
Qed.

Lemma spec_chars st n cs : fst (spec_execs st [] (chars_ops 0 n cs)) = [Some (concat (map encode_cp cs))].
Proof.
  rewrite spec_execs_fst. unfold chars_ops. cbn [fold_left spec_exec app fst]. change (concat (map encode_cp cs)) with ([] ++ concat (map encode_cp cs)).
  generalize (@nil N). induction cs as [|c cs IH]; intros T.
  - cbn. rewrite app_nil_r. reflexivity.
  - cbn [map fold_left spec_exec son sget nth_error upd concat fst]. rewrite IH, <- app_assoc. reflexivity.
Qed.

Lemma lossy_ops_wf st n cs : Forall (fun c => Valid (fst c)) cs -> Forall (op_wf st) (lossy_ops 0 n cs).
Proof.
  intros H. unfold lossy_ops. constructor; [exact I|]. induction H as [|[v inv] cs Hv _ IH]; cbn [flat_map]; [constructor|].
  apply Forall_app. split; [|exact IH]. unfold lossy_chunk_ops. cbn [fst snd]. constructor; [exact Hv|].
  destruct inv; [|constructor]. constructor; [reflexivity|constructor].
Qed.
Lemma chars_ops_wf st n cs : scalars cs -> Forall (op_wf st) (chars_ops 0 n cs).
Proof.
  intros H. unfold chars_ops. constructor; [exact I|]. induction H as [|c cs Hc _ IH]; cbn [map]; constructor; auto.
Qed.

(* a history whose Spec run ends in the single text T: never UB, and unless an allocation fails the text is T *)
Lemma histories_text st orc ops T :
  gen_ok -> Forall Valid st -> Forall (op_wf st) ops -> fst (spec_execs st [] ops) = [Some T] ->
  let '(w, outs) := execs (world0 st orc) ops in
  WF w /\ Forall (fun o => forall u, o <> UbOut u) outs
  /\ (forallb (fun o => negb (alloc_failure o)) outs = true -> abs w = [Some T]).
Proof.
  intros Hg Hst Hwf Hs. pose proof (execs_sound st orc ops Hg Hst Hwf) as H.
  destruct (execs (world0 st orc) ops) as [w outs]. destruct H as (HW & _ & Hu & Hr).
  split; [exact HW|]. split; [exact Hu|]. intros Hall. rewrite <- (Hr Hall) in Hs. exact Hs.
Qed.
