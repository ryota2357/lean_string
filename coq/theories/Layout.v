(* Layout.v — the 16-byte image of a handle and the branch-free decode of Repr::len / as_bytes dispatch. *)
From LS Require Import Base Impl ListFacts Inv InlineFacts.
From LSGen Require Import GenSrc.
Open Scope N_scope.

Fixpoint to_le (n : N) (k : nat) : list N :=
  match k with O => [] | S k' => n mod 256 :: to_le (n / 256) k' end.
Definition of_le (bs : list N) : N := fold_right (fun b acc => b + 256 * acc) 0 bs.

Lemma of_le_to_le n k : of_le (to_le n k) = n mod 256 ^ N.of_nat k.
Proof.
  revert n; induction k as [|k IH]; intros n.
  - cbn. rewrite N.mod_1_r. reflexivity.
  - cbn [to_le of_le fold_right]. fold (of_le (to_le (n / 256) k)). rewrite IH.
    replace (N.of_nat (S k)) with (N.succ (N.of_nat k)) by lia. rewrite N.pow_succ_r'.
    rewrite (N.mod_mul_r n 256 (256 ^ N.of_nat k)); [reflexivity|lia|]. apply N.pow_nonzero. lia.
Qed.
Lemma to_le_length n k : length (to_le n k) = k.
Proof. revert n; induction k; intros n; cbn; auto. Qed.

(* word 0 is text (inline) or a pointer whose bytes we do not model; word 1 is 8 bytes *)
Record image := { w0 : option (list N); tail : list N }.
Definition encode (r : repr) : image :=
  match r with
  | Inline bs => {| w0 := Some (firstn 8 bs); tail := skipn 8 bs |}
  | Heap _ l => {| w0 := None; tail := to_le l 7 ++ [HEAP_MARKER] |}
  | Static _ l => {| w0 := None; tail := to_le l 7 ++ [STATIC_MARKER] |}
  end.

Definition raw_last_byte (i : image) : N := nthN (tail i) 7.
(* Repr::len (repr.rs:105-130) *)
Definition raw_len (i : image) : N :=
  let lenw := of_le (upd (tail i) 7 0) in
  let last := raw_last_byte i in
  if cond_len_is_inline last then expr_inline_len last else lenw.
Definition raw_is_heap (i : image) : bool := raw_last_byte i =? HEAP_MARKER.
Definition raw_is_static (i : image) : bool := raw_last_byte i =? STATIC_MARKER.

Lemma of_le_app0 a : of_le (a ++ [0]) = of_le a.
Proof. induction a as [|b a IH]; cbn [app of_le fold_right]; [reflexivity|]. fold (of_le (a ++ [0])). fold (of_le a). rewrite IH. reflexivity. Qed.

Lemma len_is_inline_spec b : cond_len_is_inline b = (b <? 208).
Proof. reflexivity. Qed.

Lemma last_byte_inline bs : raw_last_byte (encode (Inline bs)) = nthN bs 15.
Proof. apply nth_skipn. Qed.

(* a heap or static handle: seven length bytes, then the marker *)
Lemma last_byte_marker w l mk : raw_last_byte {| w0 := w; tail := to_le l 7 ++ [mk] |} = mk.
Proof. apply nthN_snoc, to_le_length. Qed.

Lemma raw_len_marker w l mk : l <= MAX_LEN -> 208 <= mk -> raw_len {| w0 := w; tail := to_le l 7 ++ [mk] |} = l.
Proof.
  intros Hl Hmk. unfold raw_len. rewrite last_byte_marker, len_is_inline_spec, (proj2 (N.ltb_ge mk 208) Hmk).
  cbn [tail]. rewrite <- (to_le_length l 7) at 2. rewrite upd_app_r, of_le_app0, of_le_to_le.
  apply N.mod_small. unfold MAX_LEN in Hl. change (256 ^ N.of_nat 7) with 72057594037927936. lia.
Qed.

Theorem raw_len_correct h st r :
  handle_ok h st r -> repr_len r <= MAX_LEN -> raw_len (encode r) = repr_len r.
Proof.
  intros Hr Hl. destruct r as [bs|b l|s l]; cbn [handle_ok repr_len] in *.
  - destruct Hr as (_ & _ & Htag). unfold raw_len. rewrite last_byte_inline, len_is_inline_spec.
    rewrite heap_marker_208 in Htag. apply N.ltb_lt in Htag. rewrite Htag. reflexivity.
  - apply raw_len_marker; [exact Hl | discriminate].
  - apply raw_len_marker; [exact Hl | discriminate].
Qed.

Theorem raw_dispatch_correct h st r :
  handle_ok h st r ->
  raw_is_heap (encode r) = is_heap r /\ raw_is_static (encode r) = is_static r
  /\ raw_last_byte (encode r) <= STATIC_MARKER.
Proof.
  intros Hr. unfold raw_is_heap, raw_is_static. destruct r as [bs|b l|s l]; cbn [handle_ok is_heap is_static] in *.
  - destruct Hr as (_ & _ & Htag). rewrite last_byte_inline. rewrite heap_marker_208 in Htag.
    change STATIC_MARKER with 209. rewrite heap_marker_208. repeat split; try (apply N.eqb_neq); lia.
  - cbn [encode]. rewrite last_byte_marker. repeat split. discriminate.
  - cbn [encode]. rewrite last_byte_marker. repeat split. discriminate.
Qed.

(* the LastByte enum declares exactly the values 0 ..= StaticMarker, so every reachable last byte is a valid
   discriminant and the values above it are free for Option's niche *)
Definition last_byte_table_ok : bool :=
  forallb (fun k => existsb (N.eqb (N.of_nat k)) last_byte_discriminants) (seq 0 (N.to_nat STATIC_MARKER + 1))
  && forallb (fun d => d <=? STATIC_MARKER) last_byte_discriminants
  && forallb (fun k => nthN last_byte_lengths k =? MASK_1100_0000 + N.of_nat k) (seq 0 16).
