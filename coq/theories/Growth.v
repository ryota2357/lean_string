(* Growth.v — arithmetic facts about the generated [amortized_growth] and the capacity limits (C06, C12). *)
From Coq Require Import ZArith Lia ZifyBool ZifyN.
From LS Require Import Base Cmd.
From LSGen Require Import GenSrc.
Open Scope N_scope.

Lemma sat_add_spec a b : sat_add a b = if a + b <=? USIZE_MAX then a + b else USIZE_MAX.
Proof. unfold sat_add. destruct (a + b <=? USIZE_MAX) eqn:E; lia. Qed.
Lemma sat_mul_spec a b : sat_mul a b = if a * b <=? USIZE_MAX then a * b else USIZE_MAX.
Proof. unfold sat_mul. destruct (a * b <=? USIZE_MAX) eqn:E; lia. Qed.

(* the growth rule, in the region where nothing saturates *)
Lemma growth_exact l a :
  l * 3 <= USIZE_MAX -> l + a <= USIZE_MAX ->
  amortized_growth l a = N.max (l + l / 2) (l + a).
Proof.
  intros H1 H2. unfold amortized_growth, sat_add, sat_mul.
  rewrite (N.min_l (l * 3)), (N.min_l (l + a)) by lia. f_equal. lia.
Qed.

(* an accepted capacity lies in that region: MAX_LEN is below USIZE_MAX / 2, so neither operand saturated *)
Lemma growth_accepted l a :
  amortized_growth l a <= MAX_LEN -> amortized_growth l a = N.max (l + l / 2) (l + a).
Proof.
  intros H. apply growth_exact; revert H; unfold amortized_growth, sat_add, sat_mul, MAX_LEN, USIZE_MAX; lia.
Qed.
Lemma growth_ge_required l a :
  amortized_growth l a <= MAX_LEN -> l + a <= amortized_growth l a.
Proof. intros H. rewrite (growth_accepted l a H). lia. Qed.
Lemma growth_ge_len l a : l <= USIZE_MAX -> l <= amortized_growth l a.
Proof. unfold amortized_growth, sat_add, sat_mul, USIZE_MAX. lia. Qed.

(* 16 + cap cannot wrap for an accepted capacity: what the wrapping_add in realloc relies on *)
Lemma layout_size_no_wrap c : c <= MAX_LEN -> wrapping_add HDR c = HDR + c.
Proof.
  unfold wrapping_add, HDR, MAX_LEN, USIZE_MAX. intros H. apply N.mod_small. lia.
Qed.
Lemma header_is_hdr : HEADER_SIZE = HDR.
Proof. reflexivity. Qed.
