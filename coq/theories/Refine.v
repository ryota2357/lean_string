(* Refine.v — every operation of Exec preserves WF, never reaches UB, leaves the other slots alone and,
   unless it reports an allocation failure, does to the texts exactly what Spec (String) does.
   An in-place operation is described once, at the level of its function: [inplace_op f P fs] says that [f] satisfies
   the specification [P] and that [P] makes it do what String's [fs] does; a constructor-like one by [ctor_op]. *)
From Coq Require Import ZArith.
From LS Require Import Base Utf8 Utf8Spec Utf8Facts Cmd Impl Wp Inv InlineFacts NumModel Num Exec
     Specs Specs2 SpecsRetain SpecsShrink Specs3 WF Spec.
From LSGen Require Import GenSrc.
Open Scope N_scope.

Lemma abs_length w : length (abs w) = length (pool w).
Proof. unfold abs. apply map_length. Qed.
Lemma sget_abs w i : sget (abs w) i = option_map (text_of (wmem w)) (get_slot w i).
Proof.
  unfold sget, get_slot, abs. rewrite nth_error_map. destruct (nth_error (pool w) i) as [[r|]|]; reflexivity.
Qed.
Lemma map_ext_nth {A B} (f g : A -> B) l :
  (forall i x, nth_error l i = Some x -> f x = g x) -> map f l = map g l.
Proof.
  induction l as [|y l IH]; intros H; cbn [map]; [reflexivity|]. f_equal.
  - apply (H 0%nat y). reflexivity.
  - apply IH. intros i x Hi. apply (H (S i) x). exact Hi.
Qed.
Lemma map_upd_agree {A B} (f g : A -> B) l i x :
  (forall j y, j <> i -> nth_error l j = Some y -> f y = g y) -> map f (upd l i x) = upd (map g l) i (f x).
Proof.
  revert i; induction l as [|z l IH]; intros [|i] H; cbn [map upd]; f_equal.
  - apply map_ext_nth. intros j y Hj. apply (H (S j) y); [lia|exact Hj].
  - apply (H 0%nat z); [lia|reflexivity].
  - apply IH. intros j y Hne Hj. apply (H (S j) y); [lia|exact Hj].
Qed.

Definition others_same (w : world) (i : nat) (m' : mem) : Prop :=
  forall j rj, j <> i -> nth_error (pool w) j = Some (Some rj) ->
               text_of m' rj = text_of (wmem w) rj /\ cap_of m' rj = cap_of (wmem w) rj.
Definition all_same (w : world) (m' : mem) : Prop :=
  forall j rj, nth_error (pool w) j = Some (Some rj) ->
               text_of m' rj = text_of (wmem w) rj /\ cap_of m' rj = cap_of (wmem w) rj.

Lemma abs_set_slot w i m' s :
  others_same w i m' -> abs (set_slot w m' i s) = upd (abs w) i (option_map (text_of m') s).
Proof.
  intros Ho. unfold abs. apply map_upd_agree.
  intros j [rj|] Hne Hj; cbn [option_map]; [|reflexivity]. f_equal. apply (Ho j rj Hne Hj).
Qed.
Lemma abs_append_slot w m' s :
  all_same w m' -> abs (append_slot w m' s) = abs w ++ [option_map (text_of m') s].
Proof.
  intros Ha. unfold abs. cbn [append_slot pool wmem]. rewrite map_app. f_equal.
  apply map_ext_nth. intros j [rj|] Hj; cbn [option_map]; [|reflexivity]. f_equal. apply (Ha j rj Hj).
Qed.
Lemma abs_same_pool w m' :
  all_same w m' -> abs {| pool := pool w; wmem := m' |} = abs w.
Proof.
  intros Ha. unfold abs. apply map_ext_nth.
  intros j [rj|] Hj; cbn [option_map]; [|reflexivity]. f_equal. apply (Ha j rj Hj).
Qed.

Definition ok_out {A} (o : out A) : Prop := match o with OVal _ => True | OUb _ => False end.

(* [o] is not UB and, unless it reports an allocation failure, value and result are String's [v] *)
Definition matches {T} (o : outcome) (x : T) (v : T * outcome) : Prop :=
  (forall u, o <> UbOut u) /\ (alloc_failure o = false -> (x, o) = v).

Lemma fin_not_ub m ok u : fin m ok <> UbOut u.
Proof. destruct m, ok; discriminate. Qed.
Lemma fin_matches {T} m ok (x y : T) : (ok = true -> x = y) -> matches (fin m ok) x (y, OkUnit).
Proof.
  split; [intros u; apply fin_not_ub|]. destruct ok; [rewrite H; reflexivity|destruct m; discriminate].
Qed.
Lemma fin_res_matches {A T} m (r : res A) okv (x : T) v :
  (forall a, r = ROk a -> matches (okv a) x v) -> (forall p, r = RPanic p -> matches (of_panic p) x v) ->
  matches (fin_res m r okv) x v.
Proof.
  intros H1 H2. destruct r as [a| |p]; [apply H1|destruct m; split; discriminate|apply H2]; reflexivity.
Qed.
Lemma matches_val {T} o (x : T) v : (forall u, o <> UbOut u) -> (x, o) = v -> matches o x v.
Proof. split; auto. Qed.

Set Implicit Arguments.
Record inplace_op (f : repr -> cmd (repr * outcome)) (P : post outcome) (fs : list N -> list N * outcome) : Prop := {
  io_spec : op_spec f P;
  io_step : forall m own r m' r' o, P m own r m' r' o -> step_ok m own r m' r';
  io_matches : forall m own r m' r' o, handle_ok (heap m) (statics m) r -> P m own r m' r' o ->
               matches o (text_of m' r') (fs (text_of m r));
}.
Unset Implicit Arguments.
Arguments io_matches [f P fs] _ [m own r m' r' o] _ _.

(* the result of an in-place operation on slot i whose function-level postcondition is [P r m' r' out] *)
Definition on_result (w : world) (i : nat) (w' : world) (out : outcome)
           (P : repr -> mem -> repr -> outcome -> Prop) : Prop :=
  match get_slot w i with
  | None => w' = w /\ out = Skip
  | Some r => exists r' m', w' = set_slot w m' i (Some r') /\ P r m' r' out /\ WF w' /\ others_same w i m'
                            /\ step_ok (wmem w) (refs (pool w)) r m' r'
  end.

Lemma exec_on_sound w i (f : repr -> cmd (repr * outcome)) (P : repr -> mem -> repr -> outcome -> Prop) :
  WF w ->
  (forall r, nth_error (pool w) i = Some (Some r) ->
     wp (f r) (val (fun x m' => step_ok (wmem w) (refs (pool w)) r m' (fst x) /\ P r m' (fst x) (snd x))) (wmem w)) ->
  forall w' out, exec_on w i f = (w', out) -> on_result w i w' out P.
Proof.
  intros HW Hf w' out He. unfold exec_on in He. unfold on_result.
  destruct (get_slot w i) as [r|] eqn:Hg; [|injection He as <- <-; auto]. apply get_slot_nth in Hg.
  destruct (wp_val (Hf r Hg)) as ([r' o] & m' & Hrun & Hs & HP). rewrite Hrun in He. injection He as <- <-.
  destruct (wf_set_slot w i r m' r' _ HW Hg Hs (or_introl eq_refl)) as (HW' & Ho). exists r', m'. auto 6.
Qed.
Lemma inplace_result {w i f P fs w' out} :
  WF w -> inplace_op f P fs -> exec_on w i f = (w', out) -> on_result w i w' out (P (wmem w) (refs (pool w))).
Proof.
  intros HW Hop. apply (exec_on_sound w i f _ HW). intros r Hi. destruct (wf_pre HW Hi) as (HM & Hr & Hc).
  pose proof (io_spec Hop) as Hsp. apply (Hsp _ _ r _ HM Hr Hc).
  intros m' r' o HP. split; [eapply (io_step Hop)|]; exact HP.
Qed.
Lemma on_result_live {w i w' out P r} :
  on_result w i w' out P -> nth_error (pool w) i = Some (Some r) ->
  exists r', w' = set_slot w (wmem w') i (Some r') /\ P r (wmem w') r' out /\ WF w' /\ others_same w i (wmem w')
             /\ step_ok (wmem w) (refs (pool w)) r (wmem w') r'.
Proof.
  unfold on_result. intros H Hr. apply get_slot_nth in Hr. rewrite Hr in H. destruct H as (r' & m' & -> & H).
  exists r'. split; [reflexivity|exact H].
Qed.
Lemma on_result_dead {w i w' out P} : on_result w i w' out P -> get_slot w i = None -> w' = w /\ out = Skip.
Proof. unfold on_result. intros H E. rewrite E in H. exact H. Qed.

Definition mapped {X} (mk : X -> outcome) (P : post X) : post outcome :=
  fun m own r m' r' o => exists x, P m own r m' r' x /\ o = mk x.
Lemma mapped_op {X} (mk : X -> outcome) {g P fs} :
  op_spec g P -> (forall m own r m' r' x, P m own r m' r' x -> step_ok m own r m' r') ->
  (forall m own r m' r' x, handle_ok (heap m) (statics m) r -> P m own r m' r' x ->
                           matches (mk x) (text_of m' r') (fs (text_of m r))) ->
  inplace_op (fun r => p <- g r ;; Ret (fst p, mk (snd p))) (mapped mk P) fs.
Proof.
  intros Hg Hs Hm. split.
  - intros m own r Q HM Hr Hc HQ. apply wp_seq. apply (Hg m own r _ HM Hr Hc). intros m' r' x HP.
    apply wp_ret. apply HQ. exists x. auto.
  - intros m own r m' r' o (x & HP & _). eapply Hs; exact HP.
  - intros m own r m' r' o Hr (x & HP & ->). eapply Hm; [exact Hr|exact HP].
Qed.

Lemma step_same_text {m own r m' r'} : step_ok m own r m' r' -> heap m' = heap m -> text_of m' r = text_of m r.
Proof. intros S. apply text_of_same. exact (step_env S). Qed.

Lemma push_str_op md s : Valid s ->
  inplace_op (fun r => p <- push_str r s ;; Ret (fst p, fin md (snd p)))
             (mapped (fin md) (push_post s)) (fun t => (t ++ s, OkUnit)).
Proof.
  intros Hv. apply (mapped_op (fin md) (push_str_wp s Hv) (@pp_step s)).
  intros m own r m' r' ok _ HP. apply fin_matches. exact (pp_ok HP).
Qed.
Lemma reserve_op md n :
  inplace_op (fun r => p <- reserve r n ;; Ret (fst p, fin md (snd p)))
             (mapped (fin md) (reserve_post n)) (fun t => (t, OkUnit)).
Proof.
  apply (mapped_op (fin md) (reserve_wp n) (@rp_step n)).
  intros m own r m' r' ok _ HP. apply fin_matches. intros _. exact (rp_text HP).
Qed.
Lemma shrink_to_op md n :
  inplace_op (fun r => p <- shrink_to r n ;; Ret (fst p, fin md (snd p)))
             (mapped (fin md) (fun m own r => shrink_post m own r n)) (fun t => (t, OkUnit)).
Proof.
  apply (mapped_op (fin md) (shrink_to_wp n) (fun m own r => sh_step m own r n)).
  intros m own r m' r' ok _ HP. apply fin_matches. intros _. exact (shrink_text HP).
Qed.
Definition pop_out (res : option N) : outcome := match res with Some c => OkChar c | None => OkNone end.
Lemma pop_op :
  inplace_op (fun r => p <- pop r ;; Ret (fst p, pop_out (snd p))) (mapped pop_out pop_post)
             (fun t => match t with [] => (t, OkNone) | _ => (pop_text t, OkChar (decode_cp (last_char t))) end).
Proof.
  apply (mapped_op pop_out pop_wp po_step). intros m own r m' r' res _ HP. apply matches_val; [destruct res; discriminate|].
  destruct (text_of m r) as [|c0 T0] eqn:ET.
  - destruct (po_none HP ET) as (-> & ->).
    rewrite (step_same_text (po_step HP) (proj1 (po_heap HP))), ET. reflexivity.
  - destruct (po_some HP) as (-> & ->); [rewrite ET; discriminate|]. rewrite ET. reflexivity.
Qed.
(* String's remove, insert_str and truncate *)
Definition remove_fs (idx : N) (t : list N) : list N * outcome :=
  if remove_ok_idx t idx then (remove_text t idx, OkChar (decode_cp (first_char (skipn (N.to_nat idx) t))))
  else (t, PanicIndex).
Definition insert_fs (idx : N) (s t : list N) : list N * outcome :=
  if is_char_boundary t idx then (insert_text t idx s, OkUnit) else (t, PanicIndex).
Definition truncate_fs (n : N) (t : list N) : list N * outcome :=
  if len t <=? n then (t, OkUnit) else if is_char_boundary t n then (firstn (N.to_nat n) t, OkUnit) else (t, PanicIndex).

Lemma remove_op md idx :
  inplace_op (fun r => p <- remove r idx ;; Ret (fst p, fin_res md (snd p) OkChar))
             (mapped (fun res => fin_res md res OkChar) (remove_post idx)) (remove_fs idx).
Proof.
  apply (mapped_op (fun res => fin_res md res OkChar) (remove_wp idx) (@rm_step idx)).
  intros m own r m' r' res _ HP. unfold remove_fs. destruct (remove_ok_idx (text_of m r) idx) eqn:Eok; apply fin_res_matches.
  - intros c ->. destruct (rm_ok HP eq_refl) as (-> & ->). apply matches_val; [discriminate|reflexivity].
  - intros p ->. destruct (rm_nopanic HP Eok eq_refl).
  - intros c ->. destruct (rm_panic HP Eok) as (E & _). discriminate E.
  - intros p ->. destruct (rm_panic HP Eok) as (E & -> & Hh & _). injection E as ->.
    rewrite (step_same_text (rm_step HP) Hh). apply matches_val; [discriminate|reflexivity].
Qed.
Definition fin_unit (md : mode) (r : res unit) : outcome := fin_res md r (fun _ => OkUnit).
Lemma insert_str_op md idx s : Valid s ->
  inplace_op (fun r => p <- insert_str r idx s ;; Ret (fst p, fin_res md (snd p) (fun _ => OkUnit)))
             (mapped (fin_unit md) (insert_post idx s)) (insert_fs idx s).
Proof.
  intros Hv. apply (mapped_op (fin_unit md) (insert_str_wp idx s Hv) (@ip_step idx s)).
  intros m own r m' r' res _ HP. unfold insert_fs. destruct (is_char_boundary (text_of m r) idx) eqn:Eb; apply fin_res_matches.
  - intros [] ->. rewrite (ip_ok HP eq_refl). apply matches_val; [discriminate|reflexivity].
  - intros p ->. destruct (proj2 (ip_nopanic HP Eb) p eq_refl).
  - intros a ->. destruct (ip_panic HP Eb) as (E & _). discriminate E.
  - intros p ->. destruct (ip_panic HP Eb) as (E & -> & Hh & _). injection E as ->.
    rewrite (step_same_text (ip_step HP) Hh). apply matches_val; [discriminate|reflexivity].
Qed.
Lemma truncate_op md n :
  inplace_op (fun r => p <- truncate r n ;; Ret (fst p, fin_res md (snd p) (fun _ => OkUnit)))
             (mapped (fin_unit md) (truncate_post n)) (truncate_fs n).
Proof.
  apply (mapped_op (fin_unit md) (truncate_wp n) (@tr_step n)).
  intros m own r m' r' res Hr HP. unfold truncate_fs. rewrite (text_len m r Hr).
  assert (Hsame : r' = r -> text_of m' r' = text_of m r).
  { intros ->. exact (step_same_text (tr_step HP) (proj1 (tr_heap HP))). }
  destruct (N.leb_spec (repr_len r) n) as [Hge|Hlt]; [|destruct (is_char_boundary (text_of m r) n) eqn:Eb].
  - destruct (tr_noop HP Hge) as (-> & Er). rewrite (Hsame Er). apply matches_val; [discriminate|reflexivity].
  - destruct (tr_ok HP Hlt Eb) as (-> & ->). apply matches_val; [discriminate|reflexivity].
  - destruct (tr_panic HP Hlt Eb) as (-> & Er). rewrite (Hsame Er). apply matches_val; [discriminate|reflexivity].
Qed.
Lemma retain_op md pred :
  inplace_op (fun r => p <- retain r pred ;; Ret (fst p, fin_res md (snd p) (fun _ => OkUnit)))
             (mapped (fin_unit md) (retain_post pred))
             (fun t => (retain_text t pred, if retain_done t pred then OkUnit else PanicUser)).
Proof.
  apply (mapped_op (fin_unit md) (retain_wp pred) (@rt_step pred)).
  intros m own r m' r' res _ HP. apply fin_res_matches; intros x E;
    (destruct (rt_done HP) as (-> & E2); [rewrite E; discriminate|]); rewrite E in E2;
    destruct (retain_done (text_of m r) pred); try discriminate E2.
  - apply matches_val; [discriminate|reflexivity].
  - injection E2 as ->. apply matches_val; [discriminate|reflexivity].
Qed.
Lemma clear_op :
  inplace_op (fun r => r' <- clear r ;; Ret (r', OkUnit))
             (fun m own r m' r' o => clear_post m own r m' r' /\ o = OkUnit) (fun _ => ([], OkUnit)).
Proof.
  split.
  - intros m own r Q HM Hr Hc HQ. apply wp_seq. apply (clear_wp m own r _ HM Hr Hc). intros m' r' HP.
    apply wp_ret. auto.
  - intros m own r m' r' o (HP & _). exact (cl_step HP).
  - intros m own r m' r' o _ (HP & ->). rewrite (cl_text HP). apply matches_val; [discriminate|reflexivity].
Qed.

Lemma first_stop_outcome {ea pa k n x o} : first_stop ea pa k n = Some (x, o) -> o = ErrFmt \/ o = PanicUser.
Proof.
  unfold first_stop. destruct (stop_at ea k n), (stop_at pa k n); try discriminate.
  - destruct (Nat.leb n0 n1); intros E; injection E as _ <-; auto.
  - intros E; injection E as _ <-; auto.
  - intros E; injection E as _ <-; auto.
Qed.
Lemma reserve_failure_dec (o : outcome) : o = PanicReserve \/ o <> PanicReserve.
Proof. destruct o; (left; reflexivity) || (right; discriminate). Qed.

(* what String's loop over the same items does: stop at the first scheduled error or panic *)
Definition pieces_fs (ps : list (list N)) (ea pa : option nat) (t : list N) : list N * outcome :=
  match first_stop ea pa 0 (length ps) with
  | Some (n, o) => (t ++ concat (firstn n ps), o)
  | None => (t ++ concat ps, OkUnit)
  end.

Lemma pieces_matches {m own r ps ea pa m' r' o} :
  pieces_post ps 0 ea pa m own r m' r' o -> matches o (text_of m' r') (pieces_fs ps ea pa (text_of m r)).
Proof.
  intros [_ P2 _]. destruct (reserve_failure_dec o) as [->|Hne]; [split; discriminate|].
  specialize (P2 Hne). unfold pieces_fs. destruct (first_stop ea pa 0 (length ps)) as [[n o']|] eqn:E.
  - destruct P2 as (-> & ->). apply matches_val; [|reflexivity].
    destruct (first_stop_outcome E) as [-> | ->]; discriminate.
  - destruct P2 as (-> & ->). apply matches_val; [discriminate|reflexivity].
Qed.
Lemma pieces_inplace f ps ea pa :
  op_spec f (pieces_post ps 0 ea pa) ->
  inplace_op f (pieces_post ps 0 ea pa) (pieces_fs ps ea pa).
Proof.
  intros Hf. split; [exact Hf|intros m own r; apply pc_step|]. intros m own r m' r' o _. apply pieces_matches.
Qed.
Lemma write_pieces_op ps ea pa : Forall Valid ps ->
  inplace_op (fun r => write_pieces r ps 0 ea pa) (pieces_post ps 0 ea pa) (pieces_fs ps ea pa).
Proof. intros Hv. apply pieces_inplace. exact (write_pieces_wp ps ea pa Hv 0%nat). Qed.

Lemma Forall_valid_encode cs : Forall (fun c => is_scalar c = true) cs -> Forall Valid (map encode_cp cs).
Proof.
  induction 1 as [|c cs Hc _ IH]; constructor; auto. apply valid_char. apply encode_cp_ok. exact Hc.
Qed.
Lemma extend_chars_op hint pa cs : Forall (fun c => is_scalar c = true) cs ->
  inplace_op (fun r => extend_chars r hint pa cs) (pieces_post (map encode_cp cs) 0 None pa) (pieces_fs (map encode_cp cs) None pa).
Proof.
  intros Hv. apply pieces_inplace. intros m own r Q HM Hr Hc HQ. unfold extend_chars. apply wp_seq.
  apply (reserve_wp hint m own r _ HM Hr Hc). intros m1 r1 ok P1. cbn [fst].
  destruct (step_pre (rp_step P1)) as (HM1 & Hr1 & Hc1).
  apply (write_pieces_wp _ None pa (Forall_valid_encode _ Hv) 0%nat m1 (adj own r r1)); try assumption.
  intros m' r' o [S2 D2 F2]. apply HQ. rewrite (rp_text P1) in D2, F2. split; [exact (step_ok_trans (rp_step P1) S2)|exact D2|exact F2].
Qed.

(* clone_from: *self = src.clone(); src's count goes up before r lets go of what it named, which may be the same buffer *)
Lemma op_clone_from w i j src w' out :
  WF w -> nth_error (pool w) j = Some (Some src) -> i <> j -> exec w (OCloneFrom i j) = (w', out) ->
  on_result w i w' out (fun r m' r' o => r' = src /\ o = OkUnit /\ nreq m' = nreq (wmem w)
                                         /\ text_of m' src = text_of (wmem w) src).
Proof.
  intros HW Hj Hne He. cbn [exec] in He.
  rewrite (proj2 (get_slot_nth w j src) Hj), (proj2 (Nat.eqb_neq i j) Hne) in He. revert w' out He.
  apply exec_on_sound; [exact HW|]. intros r Hi.
  destruct (wf_pre HW Hi) as (HM & Hr & Hc). pose proof (wf_handle HW Hj) as Hsrc.
  apply wp_seq. apply (clone_wp _ _ src _ HM Hsrc). intros m1 c [-> C1 Hn1 _ _].
  apply wp_seq. apply (replace_inner_wp m1 _ r src m1 _ (co_mi C1) (ctor_ok_keeps C1 Hc Hr) (read_only_refl _)).
  intros m2 E2 Hh2 Hn2. apply wp_ret.
  pose proof (swap_step_ok Hr Hc m1 src m2 C1 E2 Hh2) as S.
  split; [exact S|]. split; [reflexivity|]. split; [reflexivity|]. split; [cbn [fst]; congruence|].
  apply (handle_framed Hsrc (step_frame S) (step_statics S)).
  intros b. apply (others_of_other_slot (pool w) i j r src b); auto.
Qed.

Lemma repr_new_names b : names repr_new b = false. Proof. reflexivity. Qed.
(* dropping a handle: replace_inner r <the empty handle> *)
Lemma drop_wp {m own r} (Q : out repr -> mem -> Prop) :
  pre m own r -> (forall m', step_ok m own r m' repr_new -> Q (OVal repr_new) m') -> wp (replace_inner r repr_new) Q m.
Proof.
  intros (HM & Hr & Hc) HQ. apply (replace_inner_wp m own r _ m _ HM Hr (read_only_refl m)). intros m' He Hh _.
  apply HQ. apply release_step; auto. apply repr_new_ok.
Qed.

(* the new slot [s] and the outcome are what String's constructor [v] gives, and a constructor that does not succeed
   leaves no handle behind *)
Definition built (v : option (list N) * outcome) (m' : mem) (s : option repr) (out : outcome) : Prop :=
  matches out (option_map (text_of m') s) v /\ (s = None \/ out = OkUnit).

Set Implicit Arguments.
Record ctor_op (w : world) (c : cmd (option repr * outcome)) (P : mem -> option repr -> outcome -> Prop)
       (v : option (list N) * outcome) : Prop := {
  co_wp : wp c (val (fun x m' => ctor_inv w m' (fst x) /\ P m' (fst x) (snd x))) (wmem w);
  co_built : forall m' s out, P m' s out -> built v m' s out;
}.
Unset Implicit Arguments.
Arguments co_built [w c P v] _ [m' s out] _.

Definition ctor_result (w w' : world) (out : outcome) (P : mem -> option repr -> outcome -> Prop) : Prop :=
  exists s m', w' = append_slot w m' s /\ P m' s out /\ WF w' /\ all_same w m' /\ statics m' = statics (wmem w).

Lemma exec_ctor_sound {w c P v w' out} :
  WF w -> ctor_op w c P v -> exec_ctor w c = (w', out) -> ctor_result w w' out P.
Proof.
  intros HW [Hc _] He. unfold exec_ctor in He. destruct (wp_val Hc) as ([s o] & m' & Hrun & Hinv & HP).
  rewrite Hrun in He. injection He as <- <-. destruct (wf_append w m' s HW Hinv) as (HW' & Ha).
  exists s, m'. pose proof (ctor_inv_statics Hinv). auto 6.
Qed.

(* new, from(char), from(bool): a short text, inline *)
Lemma inline_ctor_op w t :
  WF w -> Valid t -> (length t <= 16)%nat ->
  ctor_op w (Ret (Some (Inline (inline_new t)), OkUnit))
          (fun m' s out => s = Some (Inline (inline_new t)) /\ out = OkUnit) (Some t, OkUnit).
Proof.
  intros HW Hv Hl. split.
  - apply wp_ret. split; [|auto]. apply ctor_ok_nonheap; auto; [exact (wf_mi _ HW)|apply inline_handle_ok; auto].
  - intros m' s out (-> & ->). split; [|auto]. apply matches_val; [discriminate|]. cbn [option_map text_of].
    rewrite inline_new_text by assumption. reflexivity.
Qed.

(* from(&str), with_capacity, from(integer): [c0] returns a handle reading [t], or None with nothing changed *)
Definition optc_ok (m : mem) (own : bufid -> N) (t : list N) (m' : mem) (o : option repr) : Prop :=
  match o with
  | Some r' => ctor_ok m own m' r' /\ text_of m' r' = t
  | None => same_env m m' /\ heap m' = heap m
  end.
Lemma from_str_optc m own t m' o : from_str_post m own t m' o -> optc_ok m own t m' o.
Proof.
  intros [Hn Hs]. destruct o as [r'|]; cbn [optc_ok].
  - destruct (Hs r' eq_refl) as (C & T & _). auto.
  - destruct (Hn eq_refl) as (E & H & _). auto.
Qed.
Lemma with_capacity_optc m own c m' o : with_capacity_post m own c m' o -> optc_ok m own [] m' o.
Proof.
  intros [Hn Hs]. destruct o as [r'|]; cbn [optc_ok].
  - destruct (Hs r' eq_refl) as (C & T & _). auto.
  - destruct (Hn eq_refl) as (E & H & _). auto.
Qed.

Definition opt_post (md : mode) (P0 : mem -> option repr -> Prop) (m' : mem) (s : option repr) (out : outcome) : Prop :=
  P0 m' s /\ out = match s with Some _ => OkUnit | None => fin md false end.
Lemma opt_ctor_op w md c0 t (P0 : mem -> option repr -> Prop) :
  WF w -> (forall Q : out (option repr) -> mem -> Prop, (forall m' s, P0 m' s -> Q (OVal s) m') -> wp c0 Q (wmem w)) ->
  (forall m' s, P0 m' s -> optc_ok (wmem w) (refs (pool w)) t m' s) ->
  ctor_op w (opt_ctor md c0) (opt_post md P0) (Some t, OkUnit).
Proof.
  intros HW Hc0 Hopt. split.
  - unfold opt_ctor. apply wp_seq. apply Hc0. intros m' s HP. pose proof (Hopt m' s HP) as Ho.
    destruct s as [r'|]; apply wp_ret; (split; [|split; auto]); [exact (proj1 Ho)|destruct Ho; apply ctor_inv_same; auto].
  - intros m' s out (HP & ->). pose proof (Hopt m' s HP) as Ho. destruct s as [r'|]; (split; [|auto]).
    + cbn [option_map]. rewrite (proj2 Ho). apply matches_val; [discriminate|reflexivity].
    + split; [intros u; apply fin_not_ub|destruct md; discriminate].
Qed.

Lemma from_str_op w md t :
  WF w -> Valid t ->
  ctor_op w (opt_ctor md (from_str t)) (opt_post md (from_str_post (wmem w) (refs (pool w)) t)) (Some t, OkUnit).
Proof.
  intros HW Hv. exact (opt_ctor_op w md _ t _ HW (fun Q => from_str_wp _ _ t Q (wf_mi _ HW) Hv) (from_str_optc _ _ t)).
Qed.
Lemma with_capacity_op w md n :
  WF w -> ctor_op w (opt_ctor md (with_capacity n)) (opt_post md (with_capacity_post (wmem w) (refs (pool w)) n)) (Some [], OkUnit).
Proof.
  intros HW. exact (opt_ctor_op w md _ [] _ HW (fun Q => with_capacity_wp _ _ n Q (wf_mi _ HW)) (with_capacity_optc _ _ n)).
Qed.

Definition static_built (w : world) (s : sid) (t : list N) (m' : mem) (o : option repr) (out : outcome) : Prop :=
  heap m' = heap (wmem w) /\ nreq m' = nreq (wmem w)
  /\ ((o = None /\ out = PanicTooLong /\ STATIC_MAX_LENGTH < len t)
      \/ (exists r', o = Some r' /\ out = OkUnit /\ text_of m' r' = t /\ (16 < len t -> r' = Static s (len t)))).
Lemma from_static_op w s t :
  WF w -> nth_error (statics (wmem w)) s = Some t ->
  ctor_op w (r <- from_static_str s (static_len w s) ;;
             match r with ROk x => Ret (Some x, OkUnit) | RErr => Ret (None, PanicReserve)
                        | RPanic p => Ret (None, of_panic p) end)
          (static_built w s t) (Some t, OkUnit).
Proof.
  intros HW Hs. unfold static_len. rewrite Hs.
  assert (Hv : Valid t).
  { pose proof (wf_statics _ HW) as F. rewrite Forall_forall in F. apply F. eapply nth_error_In; eauto. }
  split.
  - apply wp_seq. apply (from_static_str_wp (wmem w) (refs (pool w)) s t); [exact (wf_mi _ HW)|exact Hs|exact Hv|].
    intros m' res [(E & Hh & Hn) Herr Hp Hok]. destruct res as [r'| |p]; [|congruence|]; apply wp_ret.
    + destruct (Hok r' eq_refl) as (C1 & C2 & _ & C4). split; [exact C1|]. split; [exact Hh|]. split; [exact Hn|].
      right. exists r'. auto.
    + destruct (Hp p eq_refl) as (-> & Hbig). split; [apply ctor_inv_same; auto|]. split; [exact Hh|]. split; [exact Hn|auto].
  - intros m' o out (_ & _ & [(-> & -> & _)|(r' & -> & -> & Ht & _)]); (split; [|auto]).
    + split; discriminate.
    + cbn [option_map]. rewrite Ht. apply matches_val; [discriminate|reflexivity].
Qed.

Lemma clone_op w i r :
  WF w -> nth_error (pool w) i = Some (Some r) ->
  ctor_op w (c <- make_shallow_clone r ;; Ret (Some c, OkUnit))
          (fun m' s out => s = Some r /\ out = OkUnit /\ clone_post (wmem w) (refs (pool w)) r m' r)
          (Some (text_of (wmem w) r), OkUnit).
Proof.
  intros HW Hi. destruct (wf_pre HW Hi) as (HM & Hr & Hc). split.
  - apply wp_seq. apply (clone_wp (wmem w) (refs (pool w)) r); auto. intros m' c HP. apply wp_ret.
    pose proof HP as [-> C _ _ _]. split; [exact C|auto].
  - intros m' s out (-> & -> & HP). split; [|auto]. cbn [option_map]. rewrite (cn_text HP).
    apply matches_val; [discriminate|reflexivity].
Qed.
(* clone of an empty slot: an empty slot *)
Lemma skip_ctor_op w : WF w -> ctor_op w (Ret (None, Skip)) (fun _ s out => s = None /\ out = Skip) (None, Skip).
Proof.
  split.
  - apply wp_ret. split; [apply ctor_inv_same; auto|auto].
  - intros m' s out (-> & ->). split; [|auto]. apply matches_val; [discriminate|reflexivity].
Qed.

Lemma ctor_step_trans {m own m1 r1 m2 r2} :
  ctor_ok m own m1 r1 -> step_ok m1 (fun b => own b + one (names r1 b)) r1 m2 r2 -> ctor_ok m own m2 r2.
Proof.
  intros [E0 M0 H0 F0] [E1 M1 H1 F1]. split.
  - eapply same_env_trans; eauto.
  - eapply MI_ext; [exact M1|]. intros b. unfold adj. lia.
  - exact H1.
  - eapply frame_trans; [exact F0|]. eapply frame_weaken; [exact F1|]. intros b Hb. unfold others.
    lia.
Qed.

(* collect and to_lean_string on a Display type build in an owned accumulator, dropped again unless the loop completed *)
Lemma finish_acc_wp w m1 r1 oc (Q : out (option repr * outcome) -> mem -> Prop) :
  ctor_ok (wmem w) (refs (pool w)) m1 r1 ->
  (oc = OkUnit -> Q (OVal (Some r1, OkUnit)) m1) ->
  (oc <> OkUnit -> forall m2, ctor_inv w m2 None -> Q (OVal (None, oc)) m2) ->
  wp (finish_acc (r1, oc)) Q m1.
Proof.
  intros C Hok Hno. unfold finish_acc.
  assert (Hdrop : oc <> OkUnit -> wp (replace_inner r1 repr_new;;; Ret (None, oc)) Q m1).
  { intros Hne. apply wp_seq. apply (drop_wp _ (ctor_pre C)). intros m2 S. apply wp_ret.
    apply (Hno Hne).
    destruct (ctor_step_trans C S) as [E M _ F]. split; [exact E|]. split; [|exact F].
    eapply MI_ext; [exact M|]. cbn [repr_new names one]. lia. }
  destruct oc; try (apply Hdrop; discriminate). apply wp_ret. apply Hok. reflexivity.
Qed.

(* what String's collect / to_string over the same items gives *)
Definition acc_v (ps : list (list N)) (ea pa : option nat) : option (list N) * outcome :=
  match first_stop ea pa 0 (length ps) with
  | Some (_, o) => (None, o)
  | None => (Some (concat ps), OkUnit)
  end.

(* what a caller may make of the loop's outcome: only success becomes success, everything but the push's panic
   is passed on, and the push's panic stays an allocation failure *)
Definition fx_ok (fx : outcome -> outcome) : Prop :=
  (forall o, fx o = OkUnit <-> o = OkUnit) /\ (forall o, o <> PanicReserve -> fx o = o)
  /\ alloc_failure (fx PanicReserve) = true.
Lemma fx_id_props : (forall o : outcome, o = OkUnit <-> o = OkUnit) /\ (forall o : outcome, o <> PanicReserve -> o = o)
                    /\ alloc_failure PanicReserve = true.
Proof. repeat split; auto. Qed.

(* the loop over an accumulator r0 that is owned once and not in the pool; [fx] is what the caller makes of the
   loop's outcome (try_to_lean_string turns the push's panic into an error) *)
Lemma acc_loop_wp w m0 r0 ps ea pa (fx : outcome -> outcome) :
  ctor_ok (wmem w) (refs (pool w)) m0 r0 -> text_of m0 r0 = [] -> Forall Valid ps -> fx_ok fx ->
  wp (p <- write_pieces r0 ps 0 ea pa ;; let '(r, o) := p in finish_acc (r, fx o))
     (val (fun x m' => ctor_inv w m' (fst x) /\ built (acc_v ps ea pa) m' (fst x) (snd x))) m0.
Proof.
  intros C0 Ht0 Hv (Hfx1 & Hfx2 & Hfx3). destruct (ctor_pre C0) as (M0 & H0 & Hc0).
  apply wp_seq. apply (write_pieces_wp ps ea pa Hv 0%nat m0 _ r0 _ M0 H0 Hc0).
  intros m1 r1 o HP. pose proof (ctor_step_trans C0 (pc_step HP)) as C1.
  destruct (pieces_matches HP) as (Hnu & Href).
  rewrite Ht0 in Href. unfold pieces_fs, acc_v in *.
  apply (finish_acc_wp w); [exact C1| |].
  - intros Eo. apply (proj1 (Hfx1 o)) in Eo. subst o. split; [exact C1|]. split; [|auto]. specialize (Href eq_refl).
    destruct (first_stop ea pa 0 (length ps)) as [[n o]|] eqn:E.
    + injection Href as _ <-. destruct (first_stop_outcome E); discriminate.
    + injection Href as Ht. cbn [fst option_map]. rewrite Ht. apply matches_val; [discriminate|reflexivity].
  - intros Hne m2 Hinv. split; [exact Hinv|]. split; [|auto].
    cbn [fst snd option_map]. destruct (reserve_failure_dec o) as [->|Hnr].
    { split; [intros u E; rewrite E in Hfx3|intros Haf; rewrite Hfx3 in Haf]; discriminate. }
    rewrite (Hfx2 o Hnr) in *. split; [exact Hnu|]. intros Haf. specialize (Href Haf).
    destruct (first_stop ea pa 0 (length ps)) as [[n o']|]; injection Href as _ Eo; [rewrite Eo; reflexivity|congruence].
Qed.

Lemma new_acc_ok w m' :
  WF w -> same_env (wmem w) m' -> heap m' = heap (wmem w) -> ctor_ok (wmem w) (refs (pool w)) m' repr_new.
Proof. intros HW E Hh. apply ctor_ok_nonheap; [exact (wf_mi _ HW)|exact E|exact Hh|reflexivity|apply repr_new_ok]. Qed.

Lemma display_op w md ea pa ps :
  WF w -> Forall Valid ps -> ctor_op w (display md ea pa ps) (built (acc_v ps ea pa)) (acc_v ps ea pa).
Proof.
  intros HW Hv. split; [|auto]. unfold display.
  apply (acc_loop_wp w (wmem w) repr_new ps ea pa (fun o => match o with PanicReserve => fin md false | _ => o end)
           (new_acc_ok w _ HW (same_env_refl _) eq_refl) (repr_new_text _) Hv). split; [|split].
  - destruct o, md; split; try discriminate; auto.
  - destruct o; auto. congruence.
  - destruct md; reflexivity.
Qed.
Lemma collect_strs_op w pa ss :
  WF w -> Forall Valid ss -> ctor_op w (collect_strs pa ss) (built (acc_v ss None pa)) (acc_v ss None pa).
Proof.
  intros HW Hv. split; [|auto].
  exact (acc_loop_wp w (wmem w) repr_new ss None pa (fun o => o) (new_acc_ok w _ HW (same_env_refl _) eq_refl)
           (repr_new_text _) Hv fx_id_props).
Qed.
Lemma collect_chars_op w hint pa cs :
  WF w -> Forall (fun c => is_scalar c = true) cs ->
  ctor_op w (collect_chars hint pa cs) (built (acc_v (map encode_cp cs) None pa)) (acc_v (map encode_cp cs) None pa).
Proof.
  intros HW Hv. split; [|auto]. unfold collect_chars, push_chars. apply wp_seq.
  apply (with_capacity_wp (wmem w) (refs (pool w))); [exact (wf_mi _ HW)|]. intros m0 oc HP.
  destruct oc as [r0|].
  - destruct (wc_some HP eq_refl) as (C0 & T0 & _).
    exact (acc_loop_wp w m0 r0 _ None pa (fun o => o) C0 T0 (Forall_valid_encode _ Hv) fx_id_props).
  - destruct (wc_none HP eq_refl) as (E0 & Hh0 & _).
    exact (acc_loop_wp w m0 repr_new _ None pa (fun o => o) (new_acc_ok w m0 HW E0 Hh0) (repr_new_text _)
             (Forall_valid_encode _ Hv) fx_id_props).
Qed.

(* a new handle of capacity for exactly the text, the text written into it: the effect of from(&str) *)
Lemma with_capacity_fill_wp m own t (Q : out (option repr) -> mem -> Prop) :
  MI (heap m) own -> Valid t ->
  (forall m' o, from_str_post m own t m' o -> Q (OVal o) m') ->
  wp (oc <- with_capacity (len t) ;;
      match oc with
      | None => Ret None
      | Some r => r1 <- write_at r 0 t ;; r2 <- set_len r1 (len t) ;; Ret (Some r2)
      end) Q m.
Proof.
  intros HM Hv HQ. apply wp_seq. apply (with_capacity_wp m own); [exact HM|]. intros m1 oc [Hno Hso].
  destruct oc as [r1|]; [|apply wp_ret; apply HQ; split; [auto|discriminate]].
  destruct (Hso r1 eq_refl) as (C1 & T1 & Hcap & Hex & Hsm & Hbg). destruct (ctor_pre C1) as (M1 & H1 & _).
  pose proof (text_len m1 r1 H1) as L1. rewrite T1 in L1.
  apply (append_wp m1 _ r1 0 (len t) t _ _ M1 H1 Hex Hv L1 eq_refl Hcap).
  intros m' r' [S Ht Hex' Hc' Hn' _ Hh' Hhp]. rewrite T1 in Ht. apply wp_ret. apply HQ. split; [discriminate|].
  intros r0 E. injection E as <-. split; [exact (ctor_step_trans C1 S)|]. split; [exact Ht|]. split.
  - intros Hs. destruct (Hsm Hs) as (-> & Hh1 & Hn1). rewrite (Hhp eq_refl), Hh'. split; [reflexivity|].
    split; [destruct r'; [reflexivity|reflexivity|contradiction]|]. split; congruence.
  - intros Hb. destruct (Hbg Hb) as (Hh1 & Hc1 & Hn1). rewrite Hh', Hc'. split; [exact Hh1|]. split; [exact Hc1|].
    split; [congruence|exact Hex'].
Qed.

Lemma from_int_op w md t z lo hi :
  WF w -> lut_ok dec_digits_lut = true -> check_table (table_of t) lo hi = true -> (lo <= z <= hi)%Z ->
  ctor_op w (opt_ctor md (from_int t z)) (opt_post md (from_str_post (wmem w) (refs (pool w)) (dec z))) (Some (dec z), OkUnit).
Proof.
  intros HW Hlut Htab Hz. apply (opt_ctor_op w md _ (dec z) _ HW); [|apply from_str_optc]. intros Q HQ. unfold from_int.
  pose proof (lookup_is_length _ _ _ Htab z Hz) as Hlk. rewrite <- (dec_length z) in Hlk. rewrite Hlk.
  pose proof (int_to_text_correct _ _ _ _ Hlut Htab z Hz) as Hw. unfold int_to_text in Hw. rewrite Hlk in Hw. rewrite Hw.
  apply (with_capacity_fill_wp _ _ (dec z) Q (wf_mi _ HW)); [|exact HQ].
  apply valid_ascii. eapply Forall_impl; [|apply dec_ascii]. intros b [->|H]; lia.
Qed.
