(* Sched.v — an executable scheduler for the interleaving semantics of Compose.v (non-vacuity: concrete executions of
   typed programs exist, run to completion and release the buffer exactly once).  run_sched is sound for csteps. *)
From Coq Require Import Lia Arith List Bool NArith.
From LSConc Require Import Clock Mach Inv Top StepSpec.
From LS Require Import Base Utf8 Cmd Impl Proto ProtoOps Compose Programs.
Import ListNotations.
Local Open Scope nat_scope.

Section Sched.
Variable b0 : bufid.

Definition mstep (s : st) (t : nat) (a : act) : option st := match step s t a with Ok s' => Some s' | _ => None end.
Definition rstep (s : st) (t : nat) : option st :=
  match mstep s t ARead with
  | Some s' => Some s'
  | None => match mstep s t AReadM with Some s' => Some s' | None => mstep s t AReadB end
  end.
(* an increment: through an own handle, else through the borrowed one *)
Definition istep (s : st) (t : nat) : option st :=
  match mstep s t AClone with Some s' => Some s' | None => mstep s t ACloneB end.

(* one event of thread t; [p]: which message a load reads; [fresh]: the id the allocator hands out (None = refuses);
   values read from other buffers are [vo] *)
Definition estep_fun (t : nat) (s : st) (c : cmd unit) (g : ghost) (p : nat) (fresh : option bufid) (vo : N)
  : option (st * cmd unit * ghost) :=
  match c with
  | Ret _ | Unreachable => None
  | Alloc n k =>
      match fresh with
      | None => Some (s, k None, g)
      | Some b => if negb (Nat.eqb b b0) && Nat.eqb (g_refs g b) 0 && negb (g_excl g b) && negb (g_free g b)
                  then Some (s, k (Some b), g_alloc g b) else None
      end
  | Realloc b o n k =>
      if Nat.eqb b b0 then match mstep s t AWrite with Some s' => Some (s', k true, g) | None => None end
      else Some (s, k true, g)
  | Dealloc b n k =>
      if Nat.eqb b b0 then match mstep s t AFree with Some s' => Some (s', k, g_dealloc g b0) | None => None end
      else Some (s, k, g_dealloc g b)
  | HdrInit b c0 k =>
      if Nat.eqb b b0 then match mstep s t AWrite with Some s' => Some (s', k, g) | None => None end
      else Some (s, k, g)
  | HdrCap b k =>
      if Nat.eqb b b0 then match rstep s t with Some s' => Some (s', k vo, g) | None => None end
      else Some (s, k vo, g)
  | Rmw b true o k =>
      if Nat.eqb b b0 then match istep s t with Some s' => Some (s', k (N.of_nat (val (hdm s))), g_inc g b0) | None => None end
      else Some (s, k vo, g_inc g b)
  | Rmw b false o k =>
      if Nat.eqb b b0 then
        match mstep s t ARelease with
        | Some s' => Some (s', k (N.of_nat (val (hdm s))), g_dec g b0 (N.of_nat (val (hdm s))))
        | None => None end
      else Some (s, k vo, g_dec g b vo)
  | Load b o k =>
      if Nat.eqb b b0 then
        match nth_error (msgs s) p, mstep s t (AProbe p) with
        | Some m, Some s' => Some (s', k (N.of_nat (val m)), g_load g b0 (N.of_nat (val m)))
        | _, _ => None end
      else Some (s, k vo, g_load g b vo)
  | Fence o k =>
      if acq o then match mstep s t AFence with Some s' => Some (s', k, g_fence g o) | None => None end
      else Some (s, k, g_fence g o)
  | Read (PStatic sid) off n k => Some (s, k [], g)
  | Read (PHeap b) off n k =>
      if Nat.eqb b b0 then match rstep s t with Some s' => Some (s', k [], g) | None => None end
      else Some (s, k [], g)
  | Write (PHeap b) off bs k =>
      if Nat.eqb b b0 then match mstep s t AWrite with Some s' => Some (s', k, g) | None => None end
      else Some (s, k, g)
  | Write (PStatic _) _ _ _ => None
  | Move (PHeap b) x y n k =>
      if Nat.eqb b b0 then match mstep s t AWrite with Some s' => Some (s', k, g) | None => None end
      else Some (s, k, g)
  | Move (PStatic _) _ _ _ _ => None
  end.

Lemma mstep_some {s t a s'} : mstep s t a = Some s' -> step s t a = Ok s'.
Proof. unfold mstep. destruct (step s t a); congruence. Qed.
Lemma rstep_some s t s' : rstep s t = Some s' -> read_step s t s'.
Proof.
  unfold rstep, read_step. destruct (mstep s t ARead) eqn:E; [intros [= <-]; left; apply mstep_some, E|].
  destruct (mstep s t AReadM) eqn:E2; [intros [= <-]; right; left; apply mstep_some, E2|].
  intros E'. right. right. apply mstep_some, E'.
Qed.
Lemma on_some {A B} (o : option A) (f : A -> B) r :
  match o with Some x => Some (f x) | None => None end = Some r -> exists x, o = Some x /\ r = f x.
Proof. destruct o; [intros [= <-]; eauto|discriminate]. Qed.

(* an event on another buffer is silent; on b0 it is the machine action estep_fun tried *)
Ltac silent := intros [= <- <- <-]; constructor; assumption.
Ltac machine := let H := fresh in let Hs := fresh in
  intros H; apply on_some in H as (? & Hs & [= -> -> ->]); constructor; first [apply mstep_some|apply rstep_some]; exact Hs.

Lemma estep_fun_sound {t s c g p fresh vo s' c' g'} :
  estep_fun t s c g p fresh vo = Some (s', c', g') -> estep b0 t s c g s' c' g'.
Proof.
  destruct c as [r| |n k|b o n k|b n k|b c0 k|b k|b [|] o k|b o k|o k|[b|sid] off n k|[b|sid] off bs k|[b|sid] x y n k];
    cbn [estep_fun]; try discriminate; try (destruct (Nat.eqb_spec b b0) as [->|Hne]; [|silent]).
  - destruct fresh as [b|]; [|silent].
    destruct (Nat.eqb_spec b b0) as [->|Hne]; cbn [negb andb]; [discriminate|].
    destruct (Nat.eqb_spec (g_refs g b) 0) as [Hr|]; cbn [andb]; [|discriminate].
    destruct (g_excl g b) eqn:He; cbn [negb andb]; [discriminate|].
    destruct (g_free g b) eqn:Hf; cbn [negb]; [discriminate|silent].
  - machine.
  - machine.
  - machine.
  - machine.
  - unfold istep. destruct (mstep s t AClone) eqn:E; [intros [= <- <- <-]; apply S_inc, mstep_some, E|].
    intros H. apply on_some in H as (s1 & Hs & [= -> -> ->]). apply S_inc_b, mstep_some, Hs.
  - machine.
  - destruct (nth_error (msgs s) p) as [m|] eqn:Em; [|discriminate].
    intros H. apply on_some in H as (s1 & Hs & [= -> -> ->]). exact (S_load b0 t s o k g s1 p m Em (mstep_some Hs)).
  - destruct (acq o) eqn:Ha; [|intros [= <- <- <-]; apply S_fence_no, Ha].
    intros H. apply on_some in H as (s1 & Hs & [= -> -> ->]). apply S_fence_acq; [exact Ha|apply mstep_some, Hs].
  - machine.
  - silent.
  - machine.
  - machine.
Qed.

(* one scheduling decision: thread t moves (if it can), with the given nondeterministic choices *)
Record choice := { who : nat; probe : nat; fresh_id : option bufid }.

Definition cstep_fun (cf : cfg) (ch : choice) : option cfg :=
  let t := who ch in
  if negb (Nat.ltb t (length (tc cf))) then None else
  if negb (started (getth (ms cf) t)) then None else
  let x := gettc b0 cf t in
  match cur x with
  | Ret _ =>
      match rest x with
      | [] => None
      | POp c :: r => Some {| ms := ms cf; tc := upd (tc cf) t {| cur := c; rest := r; gh := gh x; lt := lt x |} |}
      | PSpawn c k :: r =>
          match mstep (ms cf) t (ASpawn c k) with
          | Some s' => Some {| ms := s'; tc := upd (tc cf) t {| cur := Ret tt; rest := r; gh := g_give b0 (gh x) k; lt := lt x |} |}
          | None => None end
      | PJoin c :: r =>
          match mstep (ms cf) t (AJoin c) with
          | Some s' => Some {| ms := s'; tc := upd (tc cf) t {| cur := Ret tt; rest := r; gh := gh x; lt := lt x |} |}
          | None => None end
      | PLend c :: r =>
          match mstep (ms cf) t (ALend c) with
          | Some s' => Some {| ms := s'; tc := upd (tc cf) t {| cur := Ret tt; rest := r; gh := g_lendout b0 (lt x) (gh x); lt := c :: lt x |} |}
          | None => None end
      | PJoinB c :: r =>
          match cur (gettc b0 cf c), rest (gettc b0 cf c), mstep (ms cf) t (AJoinB c) with
          | Ret tt, [], Some s' =>
              Some {| ms := s'; tc := upd (tc cf) t {| cur := Ret tt; rest := r; gh := g_joinb b0 (List.remove Nat.eq_dec c (lt x)) (gh x);
                                                     lt := List.remove Nat.eq_dec c (lt x) |} |}
          | _, _, _ => None end
      end
  | c =>
      (* 2: what every load and RMW on a buffer other than b0, and every capacity read, returns here; so such a buffer
         is never seen unique and never freed on a schedule of this function *)
      match estep_fun t (ms cf) c (gh x) (probe ch) (fresh_id ch) 2%N with
      | Some (s', c', g') => Some {| ms := s'; tc := upd (tc cf) t {| cur := c'; rest := rest x; gh := g'; lt := lt x |} |}
      | None => None
      end
  end.

Lemma cstep_fun_sound cf ch cf' : cstep_fun cf ch = Some cf' -> cstep b0 cf cf'.
Proof.
  unfold cstep_fun. destruct (Nat.ltb_spec (who ch) (length (tc cf))) as [Ht|]; cbn [negb]; [|discriminate].
  destruct (started (getth (ms cf) (who ch))) eqn:Hst; cbn [negb]; [|discriminate].
  destruct (cur (gettc b0 cf (who ch))) as [[]| | | | | | | | | | | | ] eqn:Ec.
  (* the current command starts with an event *)
  2-13: destruct (estep_fun _ _ _ _ _ _ _) as [[[s' c'] g']|] eqn:E; [intros [= <-]|discriminate];
        apply C_event; [exact Ht|exact Hst|]; rewrite Ec; exact (estep_fun_sound E).
  destruct (rest (gettc b0 cf (who ch))) as [|[c|c k|c|c|c] r] eqn:Er; [discriminate|intros [= <-]; eapply C_next; eauto| | | |].
  1-3: intros H; apply on_some in H as (s0 & Hs & ->); apply mstep_some in Hs.
  - apply (C_spawn b0 cf (who ch) c k r s0); auto.
  - apply (C_join b0 cf (who ch) c r s0); auto.
  - apply (C_lend b0 cf (who ch) c r s0); auto.
  - destruct (cur (gettc b0 cf c)) as [[]| | | | | | | | | | | | ] eqn:Ecc; try discriminate.
    destruct (rest (gettc b0 cf c)) eqn:Erc; [|discriminate].
    intros H; apply on_some in H as (s0 & Hs & ->). apply (C_joinb b0 cf (who ch) c r s0); auto; [split; assumption|apply mstep_some, Hs].
Qed.

(* a schedule: decisions that are not enabled are skipped *)
Fixpoint run_sched (cf : cfg) (l : list choice) : cfg :=
  match l with
  | [] => cf
  | ch :: l' => match cstep_fun cf ch with Some cf' => run_sched cf' l' | None => run_sched cf l' end
  end.

Theorem run_sched_sound l : forall cf, csteps b0 cf (run_sched cf l).
Proof.
  induction l as [|ch l IH]; intros cf; cbn [run_sched]; [constructor|].
  destruct (cstep_fun cf ch) as [cf'|] eqn:E; [|apply IH].
  eapply cs_step; [apply (cstep_fun_sound cf ch cf' E)|apply IH].
Qed.
End Sched.
