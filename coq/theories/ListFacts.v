From Coq Require Import Lia Arith.
From LS Require Import Base.
Open Scope N_scope.

Lemma len_app {A} (a b : list A) : len (a ++ b) = len a + len b.
Proof. unfold len. rewrite app_length. lia. Qed.
Lemma len_nil {A} : len (@nil A) = 0. Proof. reflexivity. Qed.
Lemma len_cons {A} (x : A) l : len (x :: l) = len l + 1.
Proof. unfold len. cbn [length]. lia. Qed.
Lemma len_repeat {A} (x : A) n : len (repeat x n) = N.of_nat n.
Proof. unfold len. rewrite repeat_length. reflexivity. Qed.
Lemma len_firstn {A} (l : list A) n : len (firstn n l) = N.min (N.of_nat n) (len l).
Proof. unfold len. rewrite firstn_length. lia. Qed.
Lemma len_skipn {A} (l : list A) n : len (skipn n l) = len l - N.of_nat n.
Proof. unfold len. rewrite skipn_length. lia. Qed.
Lemma len_to_nat {A} (l : list A) : N.to_nat (len l) = length l.
Proof. unfold len. lia. Qed.
Lemma len_zero_nil {A} (l : list A) : len l = 0 -> l = [].
Proof. unfold len. destruct l; cbn [length]; [auto|lia]. Qed.

Lemma nth_error_upd_eq {A} (l : list A) n x : (n < length l)%nat -> nth_error (upd l n x) n = Some x.
Proof. revert n; induction l as [|y l IH]; intros [|n] H; cbn in *; try lia; auto. apply IH; lia. Qed.
Lemma nth_error_upd_ne {A} (l : list A) n m x : m <> n -> nth_error (upd l n x) m = nth_error l m.
Proof. revert n m; induction l as [|y l IH]; intros [|n] [|m] H; cbn; try lia; auto. Qed.
Lemma upd_length {A} (l : list A) n x : length (upd l n x) = length l.
Proof. revert n; induction l; destruct n; cbn; auto. Qed.
Lemma upd_app_l {A} (l l' : list A) n x : (n < length l)%nat -> upd (l ++ l') n x = upd l n x ++ l'.
Proof. revert n; induction l as [|y l IH]; intros [|n] H; cbn in *; try lia; auto. f_equal. apply IH. lia. Qed.
Lemma upd_eq_app {A} (pre : list A) y post x : upd (pre ++ y :: post) (length pre) x = pre ++ x :: post.
Proof. induction pre; cbn; auto. f_equal. auto. Qed.
Lemma upd_app_r {A} (l : list A) y x : upd (l ++ [y]) (length l) x = l ++ [x].
Proof. apply upd_eq_app. Qed.
Lemma upd_oob {A} (l : list A) n x : (length l <= n)%nat -> upd l n x = l.
Proof. revert n; induction l as [|y l IH]; intros [|n] H; cbn in *; try lia; auto. f_equal. apply IH. lia. Qed.
Lemma upd_upd {A} (l : list A) n x y : upd (upd l n x) n y = upd l n y.
Proof. revert n; induction l as [|z l IH]; intros [|n]; cbn; auto. f_equal. apply IH. Qed.
Lemma nth_error_lt {A} (l : list A) n x : nth_error l n = Some x -> (n < length l)%nat.
Proof. intros H. apply nth_error_Some. congruence. Qed.
Lemma lookup_last {A} (l : list A) y : nth_error (l ++ [y]) (length l) = Some y.
Proof. rewrite nth_error_app2 by lia. rewrite Nat.sub_diag. reflexivity. Qed.
Lemma nth_error_snoc {A} {l : list A} {x j y} : nth_error (l ++ [x]) j = Some y -> nth_error l j = Some y \/ y = x.
Proof.
  intros H. destruct (lt_dec j (length l)); [rewrite nth_error_app1 in H by assumption; auto|].
  rewrite nth_error_app2 in H by lia. destruct (j - length l)%nat as [|[|k]]; cbn in H; try discriminate. right. congruence.
Qed.
Lemma nth_error_app_l {A} (l l' : list A) n x : nth_error l n = Some x -> nth_error (l ++ l') n = Some x.
Proof. intros H. rewrite nth_error_app1; [exact H|]. eapply nth_error_lt; eauto. Qed.
Lemma firstn_upd_ge {A} (l : list A) n k x : (n <= k)%nat -> firstn n (upd l k x) = firstn n l.
Proof.
  revert n k; induction l as [|y l IH]; intros [|n] [|k] H; cbn; try lia; auto. f_equal. apply IH. lia.
Qed.
Lemma nth_upd_eq {A} (l : list A) n x d : (n < length l)%nat -> nth n (upd l n x) d = x.
Proof. intros H. apply nth_error_nth, nth_error_upd_eq, H. Qed.
Lemma nth_last {A} (l : list A) n d : length l = S n -> nth n l d = last l d.
Proof.
  revert n; induction l as [|y l IH]; intros n H; [discriminate|]. injection H as H.
  destruct l as [|z l]; [subst n; reflexivity|]. destruct n as [|n]; [discriminate|]. exact (IH n H).
Qed.
Lemma last_app_nonnil {A} (l1 l2 : list A) d : l2 <> [] -> last (l1 ++ l2) d = last l2 d.
Proof.
  intros Hne. induction l1 as [|x l1 IH]; [reflexivity|].
  cbn [app last]. destruct (l1 ++ l2) eqn:E; [|exact IH].
  apply app_eq_nil in E. destruct E as [_ E]. contradiction.
Qed.
Lemma nth_skipn {A} (l : list A) k i d : nth i (skipn k l) d = nth (k + i) l d.
Proof. revert l; induction k as [|k IH]; intros [|y l]; cbn [skipn Nat.add nth]; auto. destruct i; reflexivity. Qed.

Lemma firstn_app_exact {A} (a b : list A) : firstn (length a) (a ++ b) = a.
Proof. rewrite firstn_app, Nat.sub_diag, firstn_all. apply app_nil_r. Qed.
Lemma skipn_app_len {A} (a b : list A) n m : n = (length a + m)%nat -> skipn n (a ++ b) = skipn m b.
Proof. intros ->. induction a; cbn; auto. Qed.
Lemma skipn_app_exact {A} (a b : list A) : skipn (length a) (a ++ b) = b.
Proof. apply (skipn_app_len a b _ 0). lia. Qed.
Lemma skipn_add {A} (l : list A) a b : skipn (a + b) l = skipn b (skipn a l).
Proof. revert l; induction a as [|a IH]; intros [|x l]; cbn [skipn Nat.add]; auto. destruct b; reflexivity. Qed.
Lemma skipn_repeat {A} (x : A) n m : skipn n (repeat x m) = repeat x (m - n).
Proof. revert m; induction n as [|n IH]; intros [|m]; cbn; auto. Qed.

Lemma write_range_length {A} (d : list A) off bs :
  (off + length bs <= length d)%nat -> length (write_range d off bs) = length d.
Proof. intros H. unfold write_range. rewrite !app_length, firstn_length, skipn_length. lia. Qed.
Lemma write_range_prefix {A} (d : list A) off bs :
  (off <= length d)%nat -> firstn (off + length bs) (write_range d off bs) = firstn off d ++ bs.
Proof.
  intros H. unfold write_range. rewrite app_assoc.
  replace (off + length bs)%nat with (length (firstn off d ++ bs)) by (rewrite app_length, firstn_length_le; lia).
  apply firstn_app_exact.
Qed.
Lemma write_range_all {A} (d bs : list A) : length bs = length d -> write_range d 0 bs = bs.
Proof.
  intros H. unfold write_range. cbn [firstn Nat.add app]. rewrite skipn_all2 by lia. apply app_nil_r.
Qed.
Lemma write_range_zero_prefix {A} (d bs : list A) :
  (length bs <= length d)%nat -> write_range d 0 bs = bs ++ skipn (length bs) d.
Proof. reflexivity. Qed.

Lemma upd_write_range {A} (l : list A) n x : (n < length l)%nat -> upd l n x = write_range l n [x].
Proof.
  revert n; induction l as [|y l IH]; intros [|n] H; cbn in *; try lia; auto.
  f_equal. apply IH. lia.
Qed.
Lemma write_range_cons {A} (y : A) d i u : write_range (y :: d) (S i) u = y :: write_range d i u.
Proof. reflexivity. Qed.

(* two adjacent writes are one write of the concatenation, whichever comes first *)
Lemma write_range_after {A} (d u v : list A) i :
  (i <= length d)%nat -> write_range (write_range d i u) (i + length u) v = write_range d i (u ++ v).
Proof.
  revert d; induction i as [|i IH]; intros d H.
  - unfold write_range. cbn [firstn app Nat.add].
    rewrite firstn_app_exact, (skipn_app_len u _ _ (length v)), <- skipn_add, app_length, app_assoc by reflexivity.
    reflexivity.
  - destruct d as [|y d]; cbn [length] in H; [lia|].
    cbn [Nat.add]. rewrite !write_range_cons. f_equal. apply IH. lia.
Qed.
Lemma write_range_before {A} (d u v : list A) i :
  (i + length u <= length d)%nat -> write_range (write_range d (i + length u) v) i u = write_range d i (u ++ v).
Proof.
  revert d; induction i as [|i IH]; intros d H.
  - unfold write_range. cbn [firstn app Nat.add] in *.
    rewrite (skipn_app_len (firstn (length u) d) _ _ 0) by (rewrite firstn_length_le; lia).
    cbn [skipn]. rewrite app_length, app_assoc. reflexivity.
  - destruct d as [|y d]; cbn [length] in H; [lia|].
    cbn [Nat.add]. rewrite !write_range_cons. f_equal. apply IH. lia.
Qed.

Lemma slice_length {A} (d : list A) off n : (off + n <= length d)%nat -> length (slice d off n) = n.
Proof. intros H. unfold slice. rewrite firstn_length, skipn_length. lia. Qed.
Lemma slice_0 {A} (d : list A) n : slice d 0 n = firstn n d.
Proof. reflexivity. Qed.
Lemma firstn_slice_split {A} (d : list A) i l :
  (i <= l)%nat -> firstn l d = firstn i d ++ slice d i (l - i).
Proof.
  intros H. unfold slice. rewrite <- (firstn_skipn i (firstn l d)) at 1.
  rewrite firstn_firstn. replace (Nat.min i l) with i by lia. f_equal.
  rewrite skipn_firstn_comm. reflexivity.
Qed.

Lemma move_range_length {A} (d : list A) src dst n :
  (src + n <= length d)%nat -> (dst + n <= length d)%nat -> length (move_range d src dst n) = length d.
Proof. intros H1 H2. unfold move_range. apply write_range_length. rewrite slice_length; lia. Qed.

(* insert: move the tail right, then write the new bytes into the gap: one write of both *)
Lemma insert_bytes {A} (d : list A) l idx (s : list A) :
  (idx <= l)%nat -> (l + length s <= length d)%nat ->
  firstn (l + length s) (write_range (move_range d idx (idx + length s) (l - idx)) idx s)
  = firstn idx d ++ s ++ slice d idx (l - idx).
Proof.
  intros H1 H2. unfold move_range. set (tl := slice d idx (l - idx)).
  assert (Htl : length tl = (l - idx)%nat) by (apply slice_length; lia).
  rewrite write_range_before by lia.
  replace (l + length s)%nat with (idx + length (s ++ tl))%nat by (rewrite app_length; lia).
  apply write_range_prefix. lia.
Qed.

(* remove: move the tail left over the removed bytes *)
Lemma remove_bytes {A} (d : list A) l idx w :
  (idx + w <= l)%nat -> (l <= length d)%nat ->
  firstn (l - w) (move_range d (idx + w) idx (l - idx - w)) = firstn idx d ++ slice d (idx + w) (l - idx - w).
Proof.
  intros H1 H2. unfold move_range.
  set (tl := slice d (idx + w) (l - idx - w)).
  assert (Htl : length tl = (l - idx - w)%nat) by (apply slice_length; lia).
  replace (l - w)%nat with (idx + length tl)%nat by lia.
  apply write_range_prefix. lia.
Qed.

(* the facts about write_range / move_range with the N offsets and lengths the commands carry, so that no caller
   converts between N and nat *)
Lemma upd_same {A} (l : list A) n x : nth_error l n = Some x -> upd l n x = l.
Proof.
  revert n; induction l as [|y l IH]; intros [|n] H; cbn [upd nth_error] in *; try discriminate H.
  - injection H as ->. reflexivity.
  - f_equal. apply IH. exact H.
Qed.

Lemma firstn_firstn_le {A} (d : list A) i l : i <= l -> firstn (N.to_nat i) (firstn (N.to_nat l) d) = firstn (N.to_nat i) d.
Proof. intros H. rewrite firstn_firstn. f_equal. lia. Qed.
(* a prefix that lies inside [firstn n d] does not see what follows it *)
Lemma firstn_app_firstn {A} (d rest : list A) k n :
  (k <= n)%nat -> (k <= length d)%nat -> firstn k (firstn n d ++ rest) = firstn k d.
Proof.
  intros H1 H2. rewrite firstn_app, firstn_firstn, firstn_length.
  replace (Nat.min k n) with k by lia. replace (k - Nat.min n (length d))%nat with 0%nat by lia.
  apply app_nil_r.
Qed.

Section Ranges.
  Context {A : Type}.
  Implicit Types d s c : list A.

  Lemma len_write_range d off s : off + len s <= len d -> len (write_range d (N.to_nat off) s) = len d.
  Proof. intros H. unfold len in *. rewrite write_range_length; lia. Qed.
  Lemma len_move_range d src dst n :
    src + n <= len d -> dst + n <= len d -> len (move_range d (N.to_nat src) (N.to_nat dst) (N.to_nat n)) = len d.
  Proof. intros H1 H2. unfold len in *. rewrite move_range_length; lia. Qed.

  (* appending: s written at the end of the first l bytes *)
  Lemma write_prefix d l s :
    l <= len d -> firstn (N.to_nat (l + len s)) (write_range d (N.to_nat l) s) = firstn (N.to_nat l) d ++ s.
  Proof.
    intros H. replace (N.to_nat (l + len s)) with (N.to_nat l + length s)%nat by (unfold len; lia).
    apply write_range_prefix. unfold len in H. lia.
  Qed.

  (* inserting s at idx into the first l bytes: the tail moves right, s fills the gap (n and the count as
     insert_str computes them) *)
  Lemma insert_prefix d l n idx s :
    n = l + len s -> idx <= l -> n <= len d ->
    firstn (N.to_nat n)
           (write_range (move_range d (N.to_nat idx) (N.to_nat (idx + len s)) (N.to_nat (n - idx - len s))) (N.to_nat idx) s)
    = firstn (N.to_nat idx) (firstn (N.to_nat l) d) ++ s ++ skipn (N.to_nat idx) (firstn (N.to_nat l) d).
  Proof.
    intros -> H1 H2. unfold len in H2.
    replace (N.to_nat (l + len s)) with (N.to_nat l + length s)%nat by (unfold len; lia).
    replace (N.to_nat (idx + len s)) with (N.to_nat idx + length s)%nat by (unfold len; lia).
    replace (N.to_nat (l + len s - idx - len s)) with (N.to_nat l - N.to_nat idx)%nat by (unfold len; lia).
    rewrite insert_bytes by lia. rewrite firstn_firstn_le by exact H1.
    unfold slice. rewrite skipn_firstn_comm. reflexivity.
  Qed.

  (* removing the |c| bytes at idx from the first l bytes: the tail moves left over them *)
  Lemma remove_prefix d l idx c :
    idx + len c <= l -> l <= len d ->
    firstn (N.to_nat (l - len c))
           (move_range d (N.to_nat (idx + len c)) (N.to_nat idx) (N.to_nat (l - idx - len c)))
    = firstn (N.to_nat idx) (firstn (N.to_nat l) d) ++ skipn (N.to_nat idx + length c) (firstn (N.to_nat l) d).
  Proof.
    intros H1 H2. unfold len in H1, H2.
    replace (N.to_nat (l - len c)) with (N.to_nat l - length c)%nat by (unfold len; lia).
    replace (N.to_nat (idx + len c)) with (N.to_nat idx + length c)%nat by (unfold len; lia).
    replace (N.to_nat (l - idx - len c)) with (N.to_nat l - N.to_nat idx - length c)%nat by (unfold len; lia).
    rewrite remove_bytes by lia. rewrite firstn_firstn_le by lia.
    unfold slice. rewrite skipn_firstn_comm. f_equal. f_equal. lia.
  Qed.
End Ranges.
