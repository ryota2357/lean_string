(* The mutators built on reserve / ensure_modifiable.  Once the handle is exclusive, an edit is a series of writes to its
   store ([store_of]: the 16 inline bytes, or the data of its buffer) closed by set_len; [edited] follows the store through
   the writes and [edit_step_ok] reads the new text off its first bytes, the same way for push_str, insert_str, remove and
   retain. *)
From LS Require Import Base Utf8 Utf8Spec Utf8Facts Cmd Impl Wp ListFacts Inv InlineFacts Exec Specs.
From LSGen Require Import GenSrc.
Open Scope N_scope.

(* set_len / truncate_unchecked only rewrite the handle *)
Definition with_len (r : repr) (n : N) : repr :=
  match r with
  | Inline bs => Inline (inline_set_len bs n)
  | Heap b _ => Heap b n
  | Static s _ => Static s n
  end.
Lemma set_len_wp r n (Q : out repr -> mem -> Prop) m :
  n <= MAX_LEN -> Q (OVal (with_len r n)) m -> wp (set_len r n) Q m.
Proof.
  intros Hn HQ. destruct r; try (apply wp_ret; exact HQ).
  apply heap_set_len_wp; auto.
Qed.
Lemma truncate_unchecked_eq r n : truncate_unchecked r n = set_len r n.
Proof. destruct r; reflexivity. Qed.
Lemma with_len_kind r n :
  (forall b, names (with_len r n) b = names r b) /\ is_heap (with_len r n) = is_heap r
  /\ is_static (with_len r n) = is_static r.
Proof. destruct r; auto. Qed.

(* The first n of 16 bytes, valid UTF-8, as an inline value.  When all 16 are text the last one ends a char, so it
   cannot be mistaken for a length. *)
Lemma inline_set_len_ok h st d n :
  length d = 16%nat -> n <= 16 -> Valid (firstn (N.to_nat n) d) ->
  handle_ok h st (Inline (inline_set_len d n)) /\ inline_text (inline_set_len d n) = firstn (N.to_nat n) d.
Proof.
  intros H16 Hn Hv. destruct (inline_set_len_text d n H16 Hn) as (T1 & T2).
  { intros ->. change (N.to_nat 16) with 16%nat in Hv. rewrite <- H16, firstn_all in Hv. exact (full_last_lt_192 d Hv H16). }
  cbn [handle_ok]. rewrite inline_set_len_length, T1. auto.
Qed.

Lemma with_len_step {m own r} n m' :
  MI (heap m) own -> handle_ok (heap m) (statics m) r -> counted own r ->
  n <= repr_len r -> Valid (firstn (N.to_nat n) (text_of m r)) ->
  same_env m m' -> heap m' = heap m ->
  step_ok m own r m' (with_len r n) /\ text_of m' (with_len r n) = firstn (N.to_nat n) (text_of m r).
Proof.
  intros HM Hr Hc Hn Hv He Hh.
  assert (handle_ok (heap m) (statics m) (with_len r n) /\ text_of m (with_len r n) = firstn (N.to_nat n) (text_of m r))
    as (H1 & H2).
  { destruct r as [bs|b l|s l]; cbn [with_len handle_ok text_of repr_len] in *.
    - destruct Hr as (H16 & Hvt & Htag).
      pose proof (inline_len_le bs) as Hle.
      assert (Hfn : firstn (N.to_nat n) (inline_text bs) = firstn (N.to_nat n) bs) by (apply firstn_firstn_le; exact Hn).
      rewrite Hfn in *. apply (inline_set_len_ok (heap m) (statics m)); auto. lia.
    - destruct Hr as (x & Hb & Hl & Hlc & Hd & Hvx). rewrite Hb in *.
      rewrite firstn_firstn_le in * by exact Hn. split; [|reflexivity]. exists x. repeat split; auto. lia.
    - destruct Hr as (t & Hs & Hl & Hm & Hvt). rewrite Hs in *.
      rewrite firstn_firstn_le in * by exact Hn. split; [|reflexivity]. exists t. repeat split; auto. lia. }
  split.
  - apply step_ok_local; auto. apply with_len_kind.
  - rewrite (text_of_same m m' _ He Hh). exact H2.
Qed.

(* What an exclusive handle writes through (as_slice_mut): the 16 bytes of the value, or the data of its buffer. *)
Definition store_of (m : mem) (r : repr) : list N :=
  match r with
  | Inline bs => bs
  | Heap b _ => match nth_error (heap m) b with Some x => data x | None => [] end
  | Static _ _ => []
  end.
Lemma store_view {m own r} :
  MI (heap m) own -> handle_ok (heap m) (statics m) r -> exclusive (heap m) r ->
  len (store_of m r) = cap_of m r /\ text_of m r = firstn (N.to_nat (repr_len r)) (store_of m r)
  /\ repr_len r <= cap_of m r /\ cap_of m r <= MAX_LEN.
Proof.
  intros HM Hr Hex. split; [|split; [|split; [apply repr_len_le_cap; exact Hr|eapply cap_of_bound; eauto]]];
    destruct r as [bs|b l|s l]; cbn [store_of cap_of text_of repr_len]; try contradiction; try reflexivity.
  - destruct Hr as (H16 & _). unfold len. rewrite H16. reflexivity.
  - destruct (heap_handle_inv HM Hr) as (x & -> & _ & (_ & W & _) & _). exact W.
  - destruct Hr as (x & -> & _). reflexivity.
Qed.

(* Since [m], where r's store was [store_of m r], only r's store has been written, and it is now [d]: [m'] is the
   memory and [r'] the value of the handle now. *)
Definition edited (m : mem) (r : repr) (d : list N) (m' : mem) (r' : repr) : Prop :=
  same_env m m' /\ nreq m' = nreq m /\ len d = len (store_of m r) /\
  match r with
  | Inline _ => heap m' = heap m /\ r' = Inline d
  | Heap b _ => r' = r /\ exists x, nth_error (heap m) b = Some x /\ live x = true /\ heap m' = upd (heap m) b (with_data x d)
  | Static _ _ => False
  end.

Lemma edited_start m r m0 : exclusive (heap m) r -> read_only m m0 -> edited m r (store_of m r) m0 r.
Proof.
  intros Hex (He & Hh & Hn). split; [exact He|]. split; [exact Hn|]. split; [reflexivity|].
  destruct r as [bs|b l|s l]; cbn [exclusive store_of] in *; [auto| |exact Hex].
  destruct Hex as (x & Hb & Hl & _). split; [reflexivity|]. exists x. rewrite Hb.
  replace (with_data x (data x)) with x by (destruct x; reflexivity).
  rewrite (upd_same _ _ _ Hb). auto.
Qed.

Section EditAt.
  (* [C r] rewrites the store of r from d to d': in the value if r is inline, by one event on its buffer if not *)
  Variables (C : repr -> cmd repr) (d d' : list N).
  Hypothesis C_inline : C (Inline d) = Ret (Inline d').
  Hypothesis C_heap : forall b l x (Q : out repr -> mem -> Prop) m,
    nth_error (heap m) b = Some x -> live x = true -> data x = d ->
    (forall m', same_env m m' -> heap m' = upd (heap m) b (with_data x d') -> nreq m' = nreq m -> Q (OVal (Heap b l)) m') ->
    wp (C (Heap b l)) Q m.
  Hypothesis Hlen : len d' = len d.

  Lemma edit_at_wp m r m' r' (Q : out repr -> mem -> Prop) :
    edited m r d m' r' -> (forall m'' r'', edited m r d' m'' r'' -> Q (OVal r'') m'') -> wp (C r') Q m'.
  Proof.
    intros (He & Hn & Hd & Hk) HQ. destruct r as [bs|b l|s l]; [| |contradiction].
    - destruct Hk as (Hh & ->). rewrite C_inline. apply wp_ret. apply HQ.
      split; [exact He|]. split; [exact Hn|]. split; [congruence|auto].
    - destruct Hk as (-> & x & Hb & Hl & Hh).
      eapply C_heap; [rewrite Hh; apply nth_error_upd_eq; eapply nth_error_lt; exact Hb|exact Hl|reflexivity|].
      intros m2 He2 Hh2 Hn2. apply HQ.
      split; [eapply same_env_trans; eauto|]. split; [congruence|]. split; [congruence|]. split; [reflexivity|].
      exists x. rewrite Hh2, Hh, upd_upd. auto.
  Qed.
End EditAt.

Lemma write_at_wp m r d m' r' off bs (Q : out repr -> mem -> Prop) :
  edited m r d m' r' -> off + len bs <= len d ->
  (forall m'' r'', edited m r (write_range d (N.to_nat off) bs) m'' r'' -> Q (OVal r'') m'') ->
  wp (write_at r' off bs) Q m'.
Proof.
  intros Hed Hin. apply (edit_at_wp (fun r => write_at r off bs) d); [reflexivity| |apply len_write_range; exact Hin|exact Hed].
  intros b l x Q0 m0 Hb Hl <- HQ0. apply wp_seq.
  eapply write_heap_wp; [exact Hb|exact Hl|exact Hin|]. intros m1 He1 Hh1 Hn1. apply wp_ret. apply HQ0; assumption.
Qed.
Lemma move_at_wp m r d m' r' src dst n (Q : out repr -> mem -> Prop) :
  edited m r d m' r' -> src + n <= len d -> dst + n <= len d ->
  (forall m'' r'', edited m r (move_range d (N.to_nat src) (N.to_nat dst) (N.to_nat n)) m'' r'' -> Q (OVal r'') m'') ->
  wp (move_at r' src dst n) Q m'.
Proof.
  intros Hed H1 H2. apply (edit_at_wp (fun r => move_at r src dst n) d); [reflexivity| |apply len_move_range; assumption|exact Hed].
  intros b l x Q0 m0 Hb Hl <- HQ0. apply wp_seq.
  eapply move_heap_wp; [exact Hb|exact Hl|exact H1|exact H2|]. intros m1 He1 Hh1 Hn1. apply wp_ret. apply HQ0; assumption.
Qed.

Set Implicit Arguments.
Record edit_post (T : list N) (m : mem) (own : bufid -> N) (r : repr) (m' : mem) (r' : repr) : Prop := {
  ed_step : step_ok m own r m' r';
  ed_text : text_of m' r' = T;
  ed_excl : exclusive (heap m') r';
  ed_cap : cap_of m' r' = cap_of m r;
  ed_nreq : nreq m' = nreq m;
  ed_names : forall b, names r' b = names r b;
  ed_heap : is_heap r' = is_heap r;
  ed_inline : is_heap r = false -> heap m' = heap m;
}.
Unset Implicit Arguments.

Lemma edit_step_ok m own r d m' r' n T :
  MI (heap m) own -> handle_ok (heap m) (statics m) r -> exclusive (heap m) r ->
  edited m r d m' r' -> n <= cap_of m r -> firstn (N.to_nat n) d = T -> Valid T ->
  edit_post T m own r m' (with_len r' n).
Proof.
  intros HM Hr Hex (He & Hnq & Hd & Hk) Hn <- Hv. destruct (store_view HM Hr Hex) as (Hsl & _). rewrite Hsl in Hd.
  destruct r as [bs|b l|s l]; cbn [cap_of] in *; [| |contradiction].
  - destruct Hk as (Hh & ->). rewrite max_inline_16 in *.
    destruct (inline_set_len_ok (heap m) (statics m) d n) as (H1 & T1); auto; [unfold len in Hd; lia|].
    split; auto. apply step_ok_local; auto. intros b Hb. discriminate Hb.
  - destruct Hk as (-> & x & Hb & Hl & Hh). destruct Hex as (x0 & Hb0 & _ & Hc1).
    rewrite Hb in *. injection Hb0 as <-.
    destruct (MI_lookup HM Hb Hl) as ((W1 & _ & W3) & _).
    destruct (own_buf_step_ok m own b l n x (with_data x d) m' HM Hb Hl Hc1 Hl Hc1) as (S1 & S2 & S3 & S4); auto.
    { exact (conj W1 (conj Hd W3)). }
    split; auto; [cbn [cap_of]; rewrite Hb; exact S4|discriminate].
Qed.

Definition insert_text (T : list N) (idx : N) (s : list N) : list N :=
  firstn (N.to_nat idx) T ++ s ++ skipn (N.to_nat idx) T.
Definition remove_text (T : list N) (idx : N) : list N :=
  firstn (N.to_nat idx) T ++ skipn (N.to_nat idx + length (first_char (skipn (N.to_nat idx) T))) T.
Definition remove_ok_idx (T : list N) (idx : N) : bool := is_char_boundary T idx && (idx <? len T).

Lemma insert_text_valid T idx s : Valid T -> Valid s -> is_char_boundary T idx = true -> Valid (insert_text T idx s).
Proof.
  intros HT Hs Hb. destruct (valid_split_boundary T idx HT Hb) as (H1 & H2).
  unfold insert_text. apply valid_app; [exact H1|]. apply valid_app; assumption.
Qed.
Lemma remove_text_valid T idx :
  Valid T -> remove_ok_idx T idx = true ->
  let ch := first_char (skipn (N.to_nat idx) T) in
  char_ok ch = true /\ Valid (remove_text T idx) /\ idx + len ch <= len T.
Proof.
  intros HT Hok ch. unfold remove_ok_idx in Hok. apply andb_true_iff in Hok. destruct Hok as (Hb & Hlt).
  destruct (valid_split_boundary T idx HT Hb) as (H1 & H2).
  assert (Hne : skipn (N.to_nat idx) T <> []).
  { intros E. apply (f_equal (@length N)) in E. rewrite skipn_length in E. cbn [length] in E. unfold len in Hlt. lia. }
  destruct (valid_first_char _ H2 Hne) as (rest & E & Hc & Hr). fold ch in E, Hc.
  split; [exact Hc|]. split.
  - unfold remove_text. fold ch. apply valid_app; [exact H1|].
    replace (skipn (N.to_nat idx + length ch) T) with rest; [exact Hr|].
    rewrite skipn_add. rewrite E. rewrite skipn_app_exact. reflexivity.
  - apply (f_equal (@length N)) in E. rewrite skipn_length, app_length in E. unfold len in *. lia.
Qed.

Lemma append_wp {R} m own r l n s (k : repr -> cmd R) (Q : out R -> mem -> Prop) :
  MI (heap m) own -> handle_ok (heap m) (statics m) r -> exclusive (heap m) r -> Valid s ->
  l = repr_len r -> n = l + len s -> n <= cap_of m r ->
  (forall m' r', edit_post (text_of m r ++ s) m own r m' r' -> wp (k r') Q m') ->
  wp (r2 <- write_at r l s ;; r3 <- set_len r2 n ;; k r3) Q m.
Proof.
  intros HM Hr Hex Hvs -> -> Hfit HK. destruct (store_view HM Hr Hex) as (Hsl & Hst & Hlc & Hcap).
  apply wp_seq. eapply write_at_wp; [apply edited_start; [exact Hex|apply read_only_refl]|lia|]. intros m1 r1 Hed.
  apply wp_seq. apply set_len_wp; [lia|]. apply HK.
  eapply edit_step_ok; eauto.
  - rewrite write_prefix by lia. rewrite <- Hst. reflexivity.
  - apply valid_app; [apply text_valid; exact Hr|exact Hvs].
Qed.
Lemma splice_wp {R} m own r l n idx s (k : repr -> cmd R) (Q : out R -> mem -> Prop) :
  MI (heap m) own -> handle_ok (heap m) (statics m) r -> exclusive (heap m) r -> Valid s ->
  is_char_boundary (text_of m r) idx = true -> l = repr_len r -> n = l + len s -> n <= cap_of m r ->
  (forall m' r', edit_post (insert_text (text_of m r) idx s) m own r m' r' -> wp (k r') Q m') ->
  wp (r2 <- move_at r idx (idx + len s) (n - idx - len s) ;; r3 <- write_at r2 idx s ;; r4 <- set_len r3 n ;; k r4) Q m.
Proof.
  intros HM Hr Hex Hvs Hbd -> -> Hfit HK. destruct (store_view HM Hr Hex) as (Hsl & Hst & Hlc & Hcap).
  pose proof (boundary_le_len _ idx Hbd) as Hidx. rewrite (text_len m r Hr) in Hidx.
  apply wp_seq. eapply move_at_wp; [apply edited_start; [exact Hex|apply read_only_refl]|lia|lia|]. intros m1 r1 Hed1.
  apply wp_seq. eapply write_at_wp; [exact Hed1|rewrite len_move_range; lia|]. intros m2 r2 Hed2.
  apply wp_seq. apply set_len_wp; [lia|]. apply HK.
  eapply edit_step_ok; eauto.
  - rewrite Hst. apply insert_prefix; [reflexivity|lia|lia].
  - apply insert_text_valid; auto. apply text_valid. exact Hr.
Qed.
Lemma excise_wp {R} m own r l idx (k : repr -> cmd R) (Q : out R -> mem -> Prop) :
  MI (heap m) own -> handle_ok (heap m) (statics m) r -> exclusive (heap m) r ->
  remove_ok_idx (text_of m r) idx = true -> l = repr_len r ->
  let ch := first_char (skipn (N.to_nat idx) (text_of m r)) in
  (forall m' r', edit_post (remove_text (text_of m r) idx) m own r m' r' -> wp (k r') Q m') ->
  wp (r2 <- move_at r (idx + len ch) idx (l - idx - len ch) ;; r3 <- set_len r2 (l - len ch) ;; k r3) Q m.
Proof.
  intros HM Hr Hex Hok -> ch HK. destruct (store_view HM Hr Hex) as (Hsl & Hst & Hlc & Hcap).
  destruct (remove_text_valid _ idx (text_valid m r Hr) Hok) as (_ & Hv & Hw). fold ch in Hw. rewrite (text_len m r Hr) in Hw.
  apply wp_seq. eapply move_at_wp; [apply edited_start; [exact Hex|apply read_only_refl]|lia|lia|]. intros m1 r1 Hed1.
  apply wp_seq. apply set_len_wp; [lia|]. apply HK.
  eapply edit_step_ok; eauto; [lia|].
  rewrite (remove_prefix _ (repr_len r) idx ch) by lia. rewrite <- Hst. reflexivity.
Qed.

Lemma reserve_then_edit {m own r add m1 r1 T m2 r2} :
  reserve_post add m own r m1 r1 true -> edit_post T m1 (adj own r r1) r1 m2 r2 ->
  step_ok m own r m2 r2
  /\ (xcl m r -> repr_len r + add <= cap_of m r ->
      nreq m2 = nreq m /\ (forall b, names r2 b = names r b) /\ is_heap r2 = is_heap r /\ cap_of m2 r2 = cap_of m r)
  /\ (nreq m2 = nreq m \/
      (is_heap r2 = true /\ cap_of m2 r2 = amortized_growth (repr_len r) add /\ nreq m2 = nreq m + 1))
  /\ (xcl m r -> cap_of m r < repr_len r + add ->
      nreq m2 = nreq m + 1 /\ cap_of m2 r2 = amortized_growth (repr_len r) add).
Proof.
  intros P E. destruct (rp_ok P eq_refl) as (_ & Hcap1).
  split; [exact (step_ok_trans (rp_step P) (ed_step E))|].
  rewrite (ed_cap E), (ed_nreq E), (ed_heap E). split; [|split].
  - intros H1 H2. destruct (rp_fits P H1 H2) as (_ & -> & Hh1 & Hn1). rewrite (cap_of_same m m1 r Hh1).
    pose proof (ed_names E). auto.
  - destruct (rp_grow P eq_refl) as [(_ & _ & Hn)|[G|(_ & _ & _ & _ & Hn)]]; auto.
  - intros (_ & Hx) Hlt. destruct (rp_grow P eq_refl) as [(-> & Hh1 & _)|[(_ & G)|(Hst & _)]].
    + rewrite (cap_of_same m m1 r Hh1) in Hcap1. lia.
    + destruct G. auto.
    + destruct r; try discriminate Hst. destruct Hx.
Qed.
Lemma modifiable_then_edit {m own r m1 r1 T m2 r2} :
  modifiable_post m own r m1 r1 true -> edit_post T m1 (adj own r r1) r1 m2 r2 ->
  step_ok m own r m2 r2
  /\ (xcl m r -> nreq m2 = nreq m /\ (forall b, names r2 b = names r b) /\ is_heap r2 = is_heap r).
Proof.
  intros P E. split; [exact (step_ok_trans (mp_step P) (ed_step E))|].
  intros H1. destruct (mp_same P H1) as (_ & -> & _ & Hn1). rewrite (ed_nreq E).
  exact (conj Hn1 (conj (ed_names E) (ed_heap E))).
Qed.

Set Implicit Arguments.
Record push_post (s : list N) (m : mem) (own : bufid -> N) (r : repr) (m' : mem) (r' : repr) (ok : bool) : Prop := {
  pp_step : step_ok m own r m' r';
  pp_ok : ok = true -> text_of m' r' = text_of m r ++ s;
  pp_fail : ok = false -> r' = r /\ heap m' = heap m;
  pp_fits : xcl m r -> repr_len r + len s <= cap_of m r ->
            ok = true /\ nreq m' = nreq m /\ (forall b, names r' b = names r b) /\ is_heap r' = is_heap r;
  pp_grow : ok = true -> nreq m' = nreq m \/
            (is_heap r' = true /\ cap_of m' r' = amortized_growth (repr_len r) (len s) /\ nreq m' = nreq m + 1);
  pp_excl : ok = true -> s <> [] -> exclusive (heap m') r';
  pp_cap : xcl m r -> repr_len r + len s <= cap_of m r -> cap_of m' r' = cap_of m r;
  pp_nofit : ok = true -> s <> [] -> xcl m r -> cap_of m r < repr_len r + len s ->
             nreq m' = nreq m + 1 /\ cap_of m' r' = amortized_growth (repr_len r) (len s);
}.
Unset Implicit Arguments.

Lemma push_str_wp s : Valid s -> op_spec (fun r => push_str r s) (push_post s).
Proof.
  intros Hvs m own r Q HM Hr Hc HQ. unfold push_str. destruct s as [|c0 s0].
  - apply wp_ret. apply HQ. split; auto with unchanged; try congruence.
    rewrite app_nil_r. reflexivity.
  - set (s := c0 :: s0) in *.
    apply wp_seq. apply (reserve_wp (len s) m own r); auto. intros m1 r1 ok P.
    destruct ok.
    2:{ destruct (reserve_failed P) as (-> & S & Hh & Hno). apply wp_ret. apply HQ.
        split; auto; try discriminate; intros H1 H2; destruct Hno; auto. }
    destruct (step_pre (rp_step P)) as (HM1 & Hr1 & _). destruct (rp_ok P eq_refl) as (Hex1 & Hcap1).
    pose proof (rp_len P) as Hl1.
    apply (append_wp m1 (adj own r r1) r1 (repr_len r) (repr_len r + len s) s); auto.
    intros m2 r2 E. apply wp_ret. apply HQ. destruct (reserve_then_edit P E) as (S & Hfit & Hgrow & Hnofit).
    pose proof (ed_excl E) as X. split; auto; try discriminate.
    + rewrite (ed_text E), (rp_text P). reflexivity.
    + intros H1 H2. destruct (Hfit H1 H2) as (? & ? & ? & _). auto.
    + intros H1 H2. apply (Hfit H1 H2).
Qed.

Set Implicit Arguments.
Record insert_post (idx : N) (s : list N) (m : mem) (own : bufid -> N) (r : repr)
       (m' : mem) (r' : repr) (res : res unit) : Prop := {
  ip_step : step_ok m own r m' r';
  ip_panic : is_char_boundary (text_of m r) idx = false -> res = RPanic PIndex /\ r' = r /\ heap m' = heap m /\ nreq m' = nreq m;
  ip_nopanic : is_char_boundary (text_of m r) idx = true -> res <> RPanic PIndex /\ (forall p, res <> RPanic p);
  ip_ok : res = ROk tt -> text_of m' r' = insert_text (text_of m r) idx s;
  ip_fail : res = RErr -> r' = r /\ heap m' = heap m;
  ip_fits : is_char_boundary (text_of m r) idx = true -> xcl m r -> repr_len r + len s <= cap_of m r ->
            res = ROk tt /\ nreq m' = nreq m /\ (forall b, names r' b = names r b) /\ is_heap r' = is_heap r;
  ip_grow : res = ROk tt -> nreq m' = nreq m \/
            (is_heap r' = true /\ cap_of m' r' = amortized_growth (repr_len r) (len s) /\ nreq m' = nreq m + 1);
}.
Unset Implicit Arguments.

Lemma insert_post_unchanged m own r idx s m' res :
  MI (heap m) own -> handle_ok (heap m) (statics m) r -> counted own r ->
  same_env m m' -> heap m' = heap m ->
  (if is_char_boundary (text_of m r) idx
   then res = RErr /\ ~ (xcl m r /\ repr_len r + len s <= cap_of m r)
   else res = RPanic PIndex /\ nreq m' = nreq m) ->
  insert_post idx s m own r m' r res.
Proof.
  intros HM Hr Hc He Hh Hres. split; auto with unchanged.
  - intros E. rewrite E in Hres. destruct Hres. auto.
  - intros E. rewrite E in Hres. destruct Hres as (-> & _). split; [discriminate|intros p; discriminate].
  - intros ->. destruct (is_char_boundary _ _); destruct Hres; discriminate.
  - intros E H1 H2. rewrite E in Hres. destruct Hres as (_ & Hno). exfalso. auto.
  - intros ->. destruct (is_char_boundary _ _); destruct Hres; discriminate.
Qed.

Lemma insert_str_wp idx s :
  Valid s -> op_spec (fun r => insert_str r idx s) (insert_post idx s).
Proof.
  intros Hvs m own r Q HM Hr Hc HQ. unfold insert_str.
  apply wp_seq. apply (as_bytes_wp m r m); auto. intros m0 Hro0. pose proof Hro0 as (He0 & Hh0 & Hn0).
  destruct (is_char_boundary (text_of m r) idx) eqn:Hbd.
  2:{ apply wp_ret. apply HQ. apply insert_post_unchanged; auto. rewrite Hbd. auto. }
  unfold checked_add. destruct (N.leb_spec (repr_len r + len s) USIZE_MAX) as [Hsum|Hsum].
  2:{ apply wp_ret. apply HQ. apply insert_post_unchanged; auto. rewrite Hbd. split; [reflexivity|].
      pose proof (cap_of_bound m own r HM Hr). pose proof max_len_usize. lia. }
  apply wp_seq. apply (reserve_wp_at m own r (len s) m0); auto. intros m1 r1 ok P.
  destruct ok.
  2:{ destruct (reserve_failed P) as (-> & S & Hh & Hno). apply wp_ret. apply HQ.
      apply insert_post_unchanged; auto; [exact (step_env S)|]. rewrite Hbd. auto. }
  destruct (step_pre (rp_step P)) as (HM1 & Hr1 & _). destruct (rp_ok P eq_refl) as (Hex1 & Hcap1).
  pose proof (rp_len P) as Hl1. pose proof (rp_text P) as P2.
  apply (splice_wp m1 (adj own r r1) r1 (repr_len r) (repr_len r + len s) idx s); auto; [rewrite P2; exact Hbd|].
  intros m2 r2 E. apply wp_ret. apply HQ. destruct (reserve_then_edit P E) as (S & Hfit & Hgrow & _).
  pose proof (ed_text E) as T. split; try congruence.
  - split; [discriminate|intros p; discriminate].
  - intros _ H1 H2. destruct (Hfit H1 H2) as (? & ? & ? & _). auto.
Qed.

Set Implicit Arguments.
Record remove_post (idx : N) (m : mem) (own : bufid -> N) (r : repr) (m' : mem) (r' : repr) (res : res N) : Prop := {
  rm_step : step_ok m own r m' r';
  rm_panic : remove_ok_idx (text_of m r) idx = false -> res = RPanic PIndex /\ r' = r /\ heap m' = heap m /\ nreq m' = nreq m;
  rm_nopanic : remove_ok_idx (text_of m r) idx = true -> forall p, res <> RPanic p;
  rm_ok : forall c, res = ROk c ->
          text_of m' r' = remove_text (text_of m r) idx /\ c = decode_cp (first_char (skipn (N.to_nat idx) (text_of m r)));
  rm_fail : res = RErr -> r' = r /\ heap m' = heap m;
  rm_excl : remove_ok_idx (text_of m r) idx = true -> xcl m r ->
            (exists c, res = ROk c) /\ nreq m' = nreq m /\ (forall b, names r' b = names r b) /\ is_heap r' = is_heap r;
}.
Unset Implicit Arguments.

Lemma remove_post_unchanged m own r idx m' res :
  MI (heap m) own -> handle_ok (heap m) (statics m) r -> counted own r ->
  same_env m m' -> heap m' = heap m ->
  (if remove_ok_idx (text_of m r) idx then res = RErr /\ ~ xcl m r else res = RPanic PIndex /\ nreq m' = nreq m) ->
  remove_post idx m own r m' r res.
Proof.
  intros HM Hr Hc He Hh Hres. split; auto with unchanged.
  - intros E. rewrite E in Hres. destruct Hres. auto.
  - intros E p. rewrite E in Hres. destruct Hres as (-> & _). discriminate.
  - intros c ->. destruct (remove_ok_idx _ _); destruct Hres; discriminate.
  - intros E H1. rewrite E in Hres. destruct Hres as (_ & Hno). contradiction.
Qed.

Lemma remove_wp idx : op_spec (fun r => remove r idx) (remove_post idx).
Proof.
  intros m own r Q HM Hr Hc HQ. unfold remove.
  apply wp_seq. apply (as_bytes_wp m r m); auto. intros m0 Hro0. pose proof Hro0 as (He0 & Hh0 & Hn0).
  assert (Hok : remove_ok_idx (text_of m r) idx = is_char_boundary (text_of m r) idx && (idx <? repr_len r))
    by (rewrite <- (text_len m r Hr); reflexivity).
  destruct (is_char_boundary (text_of m r) idx); cbn [negb andb] in *.
  2:{ apply wp_ret. apply HQ. apply remove_post_unchanged; auto. rewrite Hok. auto. }
  destruct (idx <? repr_len r).
  2:{ apply wp_ret. apply HQ. apply remove_post_unchanged; auto. rewrite Hok. auto. }
  destruct (remove_text_valid _ idx (text_valid m r Hr) Hok) as (Hcok & _). rewrite (encode_decode _ Hcok).
  apply wp_seq. apply (ensure_modifiable_wp_at m own r m0); auto. intros m1 r1 ok P.
  destruct ok.
  2:{ destruct (modifiable_failed P) as (-> & S & Hh & Hno). apply wp_ret. apply HQ.
      apply remove_post_unchanged; auto; [exact (step_env S)|]. rewrite Hok. auto. }
  destruct (step_pre (mp_step P)) as (HM1 & Hr1 & _). pose proof (mp_ok P eq_refl) as Hex1.
  pose proof (mp_len P) as Hl1. pose proof (mp_text P) as P2. rewrite <- P2.
  apply (excise_wp m1 (adj own r r1) r1 (repr_len r) idx); auto; [rewrite P2; exact Hok|].
  intros m2 r2 E. apply wp_ret. apply HQ. destruct (modifiable_then_edit P E) as (S & Hx).
  pose proof (ed_text E) as T. split; try congruence.
  - intros c0 E0. injection E0 as <-. rewrite T, P2. auto.
  - intros _ H1. split; [eauto|apply (Hx H1)].
Qed.

Definition pop_text (T : list N) : list N := firstn (length T - length (last_char T)) T.

Set Implicit Arguments.
Record pop_post (m : mem) (own : bufid -> N) (r : repr) (m' : mem) (r' : repr) (res : option N) : Prop := {
  po_step : step_ok m own r m' r';
  po_heap : heap m' = heap m /\ nreq m' = nreq m /\ (forall b, names r' b = names r b) /\ is_heap r' = is_heap r /\ is_static r' = is_static r;
  po_none : text_of m r = [] -> res = None /\ r' = r;
  po_some : text_of m r <> [] ->
            res = Some (decode_cp (last_char (text_of m r))) /\ text_of m' r' = pop_text (text_of m r);
  po_handle : r' = r \/ exists n, n <= repr_len r /\ r' = with_len r n;
}.
Unset Implicit Arguments.

Lemma names_same_counted own r r' : (forall b, names r' b = names r b) -> counted own r -> counted own r'.
Proof. intros H Hc b Hb. apply Hc. rewrite <- H. exact Hb. Qed.

Lemma pop_text_valid T :
  Valid T -> T <> [] ->
  let ch := last_char T in
  char_ok ch = true /\ len ch <= len T /\ pop_text T = firstn (N.to_nat (len T - len ch)) T /\ Valid (pop_text T).
Proof.
  intros HT Hne ch. destruct (valid_last_char T HT Hne) as (pre & E & Hc & Hp).
  assert (Hl : len T = len pre + len ch) by (rewrite E at 1; apply len_app).
  assert (Hpop : pop_text T = firstn (N.to_nat (len T - len ch)) T).
  { unfold pop_text. fold ch. f_equal. unfold len. lia. }
  repeat split; [exact Hc|lia|exact Hpop|]. rewrite Hpop. replace (len T - len ch) with (len pre) by lia.
  rewrite E, len_to_nat, firstn_app_exact. exact Hp.
Qed.

Lemma pop_wp : op_spec pop pop_post.
Proof.
  intros m own r Q HM Hr Hc HQ. unfold pop.
  apply wp_seq. apply (as_bytes_wp m r m); auto. intros m0 (He0 & Hh0 & Hn0).
  pose proof (handle_len_bound m own r HM Hr) as HlM.
  destruct (text_of m r) as [|c0 T0] eqn:ET.
  - apply wp_ret. apply HQ. split; auto with unchanged; congruence.
  - rewrite <- ET in *. assert (Hne : text_of m r <> []) by (rewrite ET; discriminate).
    destruct (pop_text_valid _ (text_valid m r Hr) Hne) as (Hcok & Hle & Hpop & Hvp). rewrite (text_len m r Hr) in *.
    rewrite (encode_decode _ Hcok), truncate_unchecked_eq.
    apply wp_seq. apply set_len_wp; [lia|]. apply wp_ret.
    destruct (with_len_step (repr_len r - len (last_char (text_of m r))) m0 HM Hr Hc) as (S1 & S2); auto;
      [lia|rewrite <- Hpop; exact Hvp|].
    apply HQ. split; try congruence.
    + split; [exact Hh0|]. split; [exact Hn0|]. apply with_len_kind.
    + split; [reflexivity|]. rewrite S2. symmetry. exact Hpop.
    + right. eexists. split; [|reflexivity]. lia.
Qed.

Set Implicit Arguments.
Record truncate_post (n : N) (m : mem) (own : bufid -> N) (r : repr) (m' : mem) (r' : repr) (res : res unit) : Prop := {
  tr_step : step_ok m own r m' r';
  tr_heap : heap m' = heap m /\ nreq m' = nreq m /\ (forall b, names r' b = names r b) /\ is_heap r' = is_heap r /\ is_static r' = is_static r;
  tr_noop : repr_len r <= n -> res = ROk tt /\ r' = r;
  tr_panic : n < repr_len r -> is_char_boundary (text_of m r) n = false -> res = RPanic PIndex /\ r' = r;
  tr_ok : n < repr_len r -> is_char_boundary (text_of m r) n = true ->
          res = ROk tt /\ text_of m' r' = firstn (N.to_nat n) (text_of m r);
  tr_handle : r' = r \/ (n <= repr_len r /\ r' = with_len r n);
}.
Unset Implicit Arguments.

Lemma truncate_wp n : op_spec (fun r => truncate r n) (truncate_post n).
Proof.
  intros m own r Q HM Hr Hc HQ. unfold truncate, cond_truncate_noop.
  pose proof (handle_len_bound m own r HM Hr) as HlM.
  destruct (N.leb_spec (repr_len r) n) as [Hge|Hlt].
  - apply wp_ret. apply HQ. split; auto with unchanged; lia.
  - apply wp_seq. apply (as_bytes_wp m r m); auto. intros m0 (He0 & Hh0 & Hn0).
    pose proof (text_valid m r Hr) as HvT.
    destruct (is_char_boundary (text_of m r) n) eqn:Hbd.
    + destruct (valid_split_boundary _ n HvT Hbd) as (Hv1 & _). rewrite truncate_unchecked_eq.
      apply wp_seq. apply set_len_wp; [lia|]. apply wp_ret.
      destruct (with_len_step n m0 HM Hr Hc) as (S1 & S2); auto; [lia|].
      apply HQ. split; auto; try lia.
      * split; [exact Hh0|]. split; [exact Hn0|]. apply with_len_kind.
      * right. split; [lia|reflexivity].
    + apply wp_ret. apply HQ. split; auto with unchanged; try lia.
Qed.

Lemma exclusive_same m m' r : heap m' = heap m -> exclusive (heap m) r -> exclusive (heap m') r.
Proof. intros ->. auto. Qed.
Lemma xcl_same_rev m m' r : same_env m m' -> heap m' = heap m -> xcl m' r -> xcl m r.
Proof. intros He Hh (Hq & Hx). split; [eapply same_env_quiet_rev; eauto|rewrite <- Hh; exact Hx]. Qed.
