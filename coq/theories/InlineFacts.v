(* InlineFacts.v — an inline value is 16 bytes whose last byte is either the tag 192 + length (text shorter than 16)
   or the last byte of a full text, which is below 192; inline_new and inline_set_len keep the text readable that way. *)
From Coq Require Import Lia Arith.
From LS Require Import Base Utf8 Utf8Spec Utf8Facts Cmd Impl ListFacts.
From LSGen Require Import GenSrc.
Open Scope N_scope.

Lemma sweep (P : N -> bool) (k : nat) :
  forallb P (map N.of_nat (seq 0 k)) = true -> forall n, n < N.of_nat k -> P n = true.
Proof.
  intros H n Hn. rewrite forallb_forall in H. apply H. apply in_map_iff. exists (N.to_nat n). split; [lia|].
  apply in_seq. lia.
Qed.

Lemma tag_small n : n < 16 -> expr_inline_tag n = 192 + n.
Proof.
  intros H. apply N.eqb_eq. revert n H. apply (sweep (fun n => expr_inline_tag n =? 192 + n) 16).
  vm_compute. reflexivity.
Qed.
(* the wrapping subtraction of the tag mask: below 192 it wraps to a huge value and the min picks 16 *)
Lemma inline_len_spec b : b < 208 -> expr_inline_len b = if b <? 192 then 16 else b - 192.
Proof.
  intros H. unfold expr_inline_len, wrapping_sub, MASK_1100_0000, MAX_INLINE_SIZE.
  rewrite (N.mod_small 192) by (unfold USIZE_MAX; lia).
  destruct (N.ltb_spec b 192).
  - rewrite N.mod_small, N.min_r by (unfold USIZE_MAX; lia). reflexivity.
  - replace (b + (USIZE_MAX + 1) - 192) with (b - 192 + 1 * (USIZE_MAX + 1)) by lia.
    rewrite N.mod_add, N.mod_small, N.min_l by (unfold USIZE_MAX; lia). reflexivity.
Qed.
Lemma inline_len_tag n : n < 16 -> expr_inline_len (192 + n) = n.
Proof. intros H. rewrite inline_len_spec, (proj2 (N.ltb_ge _ 192)) by lia. lia. Qed.
Lemma inline_len_full b : b < 192 -> expr_inline_len b = 16.
Proof. intros H. rewrite inline_len_spec, (proj2 (N.ltb_lt b 192) H) by lia. reflexivity. Qed.
Lemma set_len_tag_cond n : cond_inline_set_len_tag n = (n <? 16).
Proof. reflexivity. Qed.
Lemma max_inline_16 : MAX_INLINE_SIZE = 16. Proof. reflexivity. Qed.
Lemma heap_marker_208 : HEAP_MARKER = 208. Proof. reflexivity. Qed.

Lemma nthN_snoc (a : list N) x n : length a = n -> nthN (a ++ [x]) n = x.
Proof. intros <-. apply nth_middle. Qed.

Lemma inline_new_short t : (length t < 16)%nat ->
  inline_new t = t ++ zeros (15 - length t) ++ [192 + len t].
Proof.
  intros H. unfold inline_new, write_range. cbn [firstn app Nat.add]. f_equal.
  rewrite tag_small by (unfold len; lia).
  rewrite skipn_app. unfold zeros. rewrite skipn_repeat, repeat_length.
  replace (length t - 15)%nat with 0%nat by lia. reflexivity.
Qed.
Lemma inline_new_full t : length t = 16%nat -> inline_new t = t.
Proof. intros H. apply write_range_all. rewrite H. reflexivity. Qed.
Lemma inline_new_length t : (length t <= 16)%nat -> length (inline_new t) = 16%nat.
Proof. intros H. unfold inline_new. rewrite write_range_length; [reflexivity | exact H]. Qed.
Lemma inline_new_tag t : (length t < 16)%nat -> nthN (inline_new t) 15 = 192 + len t.
Proof.
  intros H. rewrite inline_new_short by exact H. rewrite app_assoc. apply nthN_snoc.
  rewrite app_length. unfold zeros. rewrite repeat_length. lia.
Qed.

Lemma last_nth16 (t : list N) : length t = 16%nat -> nthN t 15 = last t 0.
Proof. apply nth_last. Qed.
(* a full inline value has no tag byte: what tells it from a shorter one is that text cannot end in 192..255 *)
Lemma full_last_lt_192 t : Valid t -> length t = 16%nat -> nthN t 15 < 192.
Proof.
  intros Hv E. rewrite last_nth16 by exact E. apply valid_last_lt_192; [exact Hv|]. intros ->. discriminate E.
Qed.

Lemma inline_new_text t : Valid t -> (length t <= 16)%nat -> inline_text (inline_new t) = t.
Proof.
  intros Hv H. unfold inline_text, inline_len. destruct (Nat.eq_dec (length t) 16) as [E|E].
  - rewrite inline_new_full, inline_len_full by auto using full_last_lt_192.
    change (N.to_nat 16) with 16%nat. rewrite <- E. apply firstn_all.
  - rewrite inline_new_tag, inline_len_tag, len_to_nat by (unfold len; lia).
    rewrite inline_new_short by lia. apply firstn_app_exact.
Qed.
Lemma inline_new_lastbyte t : Valid t -> (length t <= 16)%nat -> nthN (inline_new t) 15 < HEAP_MARKER.
Proof.
  intros Hv H. rewrite heap_marker_208. destruct (Nat.eq_dec (length t) 16) as [E|E].
  - rewrite inline_new_full by exact E. pose proof (full_last_lt_192 t Hv E). lia.
  - rewrite inline_new_tag by lia. unfold len. lia.
Qed.
Lemma inline_empty_eq : inline_empty = inline_new [].
Proof. reflexivity. Qed.

Definition inline_ok (bs : list N) : Prop :=
  length bs = 16%nat /\ Valid (inline_text bs) /\ nthN bs 15 < HEAP_MARKER.

Lemma inline_len_le bs : inline_len bs <= 16.
Proof. unfold inline_len, expr_inline_len, MAX_INLINE_SIZE. lia. Qed.
Lemma inline_text_length bs : length bs = 16%nat -> len (inline_text bs) = inline_len bs.
Proof. intros H. unfold inline_text. rewrite len_firstn. pose proof (inline_len_le bs). unfold len. lia. Qed.

Lemma inline_set_len_length bs n : length (inline_set_len bs n) = length bs.
Proof. unfold inline_set_len. destruct (cond_inline_set_len_tag n); [apply upd_length|reflexivity]. Qed.
(* the length is set to n <= 16 and the first n bytes stay as the text; for n = 16 no tag is written, so byte 15 must
   already be a text byte *)
Lemma inline_set_len_text bs n :
  length bs = 16%nat -> n <= 16 -> (n = 16 -> nthN bs 15 < 192) ->
  inline_text (inline_set_len bs n) = firstn (N.to_nat n) bs
  /\ (nthN (inline_set_len bs n) 15 < HEAP_MARKER).
Proof.
  intros H Hn H16. unfold inline_set_len. rewrite set_len_tag_cond, heap_marker_208.
  destruct (N.ltb_spec n 16) as [Hlt|Hge].
  - unfold inline_text, inline_len, nthN. rewrite nth_upd_eq, tag_small, inline_len_tag by lia.
    split; [apply firstn_upd_ge|]; lia.
  - assert (n = 16) as -> by lia. specialize (H16 eq_refl). unfold inline_text, inline_len.
    rewrite inline_len_full by exact H16. split; [reflexivity|lia].
Qed.
