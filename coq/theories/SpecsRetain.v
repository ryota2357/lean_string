From LS Require Import Base Utf8 Utf8Spec Utf8Facts Cmd Impl Wp ListFacts Inv Exec Specs Specs2.
Open Scope N_scope.

(* what std's String::retain leaves: the kept chars, and whether the predicate ran to completion *)
Fixpoint retain_spec (chars : list (list N)) (k : nat) (pred : nat -> option bool) : list (list N) * bool :=
  match chars with
  | [] => ([], true)
  | ch :: rest =>
      match pred k with
      | None => ([], false)
      | Some true => let (kept, c) := retain_spec rest (S k) pred in (ch :: kept, c)
      | Some false => retain_spec rest (S k) pred
      end
  end.
Definition retain_text (T : list N) (pred : nat -> option bool) : list N := concat (fst (retain_spec (chars_of T) 0 pred)).
Definition retain_done (T : list N) (pred : nat -> option bool) : bool := snd (retain_spec (chars_of T) 0 pred).

Set Implicit Arguments.
Record retain_post (pred : nat -> option bool) (m : mem) (own : bufid -> N) (r : repr)
       (m' : mem) (r' : repr) (res : res unit) : Prop := {
  rt_step : step_ok m own r m' r';
  rt_done : res <> RErr ->
            text_of m' r' = retain_text (text_of m r) pred
            /\ res = (if retain_done (text_of m r) pred then ROk tt else RPanic PUser);
  rt_fail : res = RErr -> r' = r /\ heap m' = heap m;
  rt_excl : xcl m r ->
            res <> RErr /\ nreq m' = nreq m /\ (forall b, names r' b = names r b) /\ is_heap r' = is_heap r;
}.
Unset Implicit Arguments.

Lemma retain_spec_Forall (P : list N -> Prop) pred cs : forall k,
  Forall P cs -> Forall P (fst (retain_spec cs k pred)).
Proof.
  induction cs as [|ch rest IH]; intros k H; cbn [retain_spec].
  - constructor.
  - inversion H as [|ch0 rest0 Hch Hrest].
    destruct (pred k) as [[|]|].
    + specialize (IH (S k) Hrest). destruct (retain_spec rest (S k) pred) as (kept, c).
      constructor; [exact Hch|exact IH].
    + apply IH. exact Hrest.
    + constructor.
Qed.

Lemma retain_spec_length pred cs : forall k,
  (length (concat (fst (retain_spec cs k pred))) <= length (concat cs))%nat.
Proof.
  induction cs as [|ch rest IH]; intros k; cbn [retain_spec].
  - cbn [fst concat length]. lia.
  - cbn [concat]. rewrite app_length. destruct (pred k) as [[|]|].
    + specialize (IH (S k)). destruct (retain_spec rest (S k) pred) as (kept, c).
      cbn [fst concat] in *. rewrite app_length. lia.
    + specialize (IH (S k)). lia.
    + cbn [fst concat length]. lia.
Qed.

(* one write through the handle per kept char; [d] is what its store holds on entry *)
Lemma retain_loop_wp pred cs : forall k m r d m' r' dst (Q : out (repr * N * bool) -> mem -> Prop),
  edited m r d m' r' -> Forall (fun c => char_ok c = true) cs -> dst + len (concat cs) <= len d ->
  (forall d' m'' r'', edited m r d' m'' r'' ->
      let kept := concat (fst (retain_spec cs k pred)) in
      firstn (N.to_nat (dst + len kept)) d' = firstn (N.to_nat dst) d ++ kept ->
      Q (OVal (r'', dst + len kept, snd (retain_spec cs k pred))) m'') ->
  wp (retain_loop r' cs k pred dst) Q m'.
Proof.
  induction cs as [|ch rest IH]; intros k m r d m' r' dst Q Hed Hcs Hfit HQ; cbn [retain_loop retain_spec] in *.
  - apply wp_ret. cbn [fst snd concat] in HQ. rewrite N.add_0_r in HQ.
    apply (HQ d _ _ Hed). symmetry. apply app_nil_r.
  - inversion Hcs as [|ch0 rest0 Hch Hrest].
    cbn [concat] in Hfit. rewrite len_app in Hfit.
    destruct (pred k) as [[|]|].
    + rewrite (encode_decode ch Hch). apply wp_seq. eapply write_at_wp; [exact Hed|lia|]. intros m1 r1 Hed1.
      eapply (IH (S k) m r _ m1 r1 (dst + len ch) _ Hed1 Hrest); [rewrite len_write_range; lia|].
      destruct (retain_spec rest (S k) pred) as (kept0, c0). cbn [fst snd concat] in *.
      rewrite len_app, N.add_assoc in HQ.
      intros d' m2 r2 Hed2 Hpre. apply (HQ d' _ _ Hed2). rewrite Hpre, write_prefix by lia. symmetry. apply app_assoc.
    + apply (IH (S k) m r d); auto. lia.
    + apply wp_ret. cbn [fst snd concat] in HQ. rewrite N.add_0_r in HQ.
      apply (HQ d _ _ Hed). symmetry. apply app_nil_r.
Qed.

Lemma retain_wp pred : op_spec (fun r => retain r pred) (retain_post pred).
Proof.
  intros m own r Q HM Hr Hc HQ. unfold retain.
  apply wp_seq. apply (ensure_modifiable_wp m own r); auto. intros m1 r1 ok P.
  destruct ok.
  2:{ destruct (modifiable_failed P) as (-> & S & Hh & Hno). apply wp_ret. apply HQ.
      split; auto; try congruence. }
  destruct (step_pre (mp_step P)) as (HM1 & Hr1 & _). pose proof (mp_ok P eq_refl) as Hex1.
  pose proof (mp_len P) as Hl1. pose proof (mp_text P) as P2.
  destruct (store_view HM1 Hr1 Hex1) as (Hsl & _ & Hlc & Hcm).
  pose proof (text_valid m r Hr) as HvT. destruct (valid_chars_of _ HvT) as (Hcs & Econc).
  pose proof (retain_spec_Forall (fun c => char_ok c = true) pred _ 0%nat Hcs) as Hkept.
  assert (Hklen : len (retain_text (text_of m r) pred) <= repr_len r).
  { pose proof (retain_spec_length pred (chars_of (text_of m r)) 0%nat) as H. rewrite Econc in H.
    pose proof (text_len m r Hr). unfold retain_text, len in *. lia. }
  apply wp_seq. apply (as_bytes_wp m1 r1 m1); auto. intros m2 Hro2. rewrite P2.
  apply wp_seq. eapply (retain_loop_wp pred _ 0%nat m1 r1 _ m2 r1 0); [apply edited_start; auto|exact Hcs| |].
  { rewrite Econc, (text_len m r Hr). lia. }
  intros d' m3 r3 Hed3 kept Hpre. subst kept.
  change (concat (fst (retain_spec (chars_of (text_of m r)) 0 pred))) with (retain_text (text_of m r) pred) in *.
  apply wp_seq. apply set_len_wp; [lia|]. apply wp_ret.
  assert (E : edit_post (retain_text (text_of m r) pred) m1 (adj own r r1) r1 m3
                        (with_len r3 (0 + len (retain_text (text_of m r) pred)))).
  { eapply edit_step_ok; eauto; [lia|apply valid_concat; exact Hkept]. }
  destruct (modifiable_then_edit P E) as (S & Hx).
  apply HQ. split; auto.
  - split; [exact (ed_text E)|reflexivity].
  - intros Hx0. destruct (snd _); discriminate Hx0.
  - intros H1. split; [destruct (snd _); discriminate|apply (Hx H1)].
Qed.

Print Assumptions retain_wp.
