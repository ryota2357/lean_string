(* Derived.v — the resource-level consequences of the per-operation lemmas (C05 - C13, C18). *)
From Coq Require Import Lia ZArith.
From LS Require Import Base Utf8 Utf8Spec Utf8Facts Cmd Impl ListFacts Growth Inv NumModel Exec Specs Specs2 SpecsRetain SpecsShrink Specs3 WF Spec Refine Main.
From LSGen Require Import GenSrc.
Open Scope N_scope.

Lemma inplace_live {w i f P fs w' out r} :
  WF w -> inplace_op f P fs -> exec_on w i f = (w', out) -> nth_error (pool w) i = Some (Some r) ->
  exists r', nth_error (pool w') i = Some (Some r') /\ (r' = r -> pool w' = pool w)
             /\ P (wmem w) (refs (pool w)) r (wmem w') r' out /\ WF w' /\ others_same w i (wmem w')
             /\ statics (wmem w') = statics (wmem w).
Proof.
  intros HW Hop He Hi.
  destruct (on_result_live (inplace_result HW Hop He) Hi) as (r' & -> & HP & HW' & Ho & S).
  exists r'. cbn [set_slot pool wmem] in *. split; [apply nth_error_upd_eq; eapply nth_error_lt; eauto|].
  split; [intros ->; apply upd_same; exact Hi|]. pose proof (step_statics S). auto.
Qed.

Lemma fin_OkUnit m ok : OkUnit = fin m ok -> ok = true.
Proof. destruct m, ok; (reflexivity || discriminate). Qed.

Definition is_reserve_failure (o : outcome) : Prop := o = ErrReserve \/ o = PanicReserve.

(* C05: a failed allocation leaves the pool and the heap exactly as they were *)
Inductive simple_mutator : op -> nat -> Prop :=
| SM_push m i c : is_scalar c = true -> simple_mutator (OPush m i c) i
| SM_push_str m i s : Valid s -> simple_mutator (OPushStr m i s) i
| SM_insert m i idx c : is_scalar c = true -> simple_mutator (OInsert m i idx c) i
| SM_insert_str m i idx s : Valid s -> simple_mutator (OInsertStr m i idx s) i
| SM_remove m i idx : simple_mutator (ORemove m i idx) i
| SM_retain m i pa bits : simple_mutator (ORetain m i pa bits) i
| SM_reserve m i n : simple_mutator (OReserve m i n) i
| SM_shrink m i n : simple_mutator (OShrinkTo m i n) i.

Definition fails_clean (P : post outcome) : Prop :=
  forall m own r m' r' o, P m own r m' r' o -> is_reserve_failure o -> r' = r /\ heap m' = heap m.

Lemma failure_noop {w i f P fs w' out} :
  WF w -> inplace_op f P fs -> fails_clean P -> exec_on w i f = (w', out) -> is_reserve_failure out ->
  pool w' = pool w /\ heap (wmem w') = heap (wmem w) /\ statics (wmem w') = statics (wmem w) /\ WF w'.
Proof.
  intros HW Hop Hcl He Hf. destruct (get_slot w i) as [r|] eqn:Hg.
  2:{ destruct (on_result_dead (inplace_result HW Hop He) Hg) as (-> & _). auto. }
  apply get_slot_nth in Hg.
  destruct (inplace_live HW Hop He Hg) as (r' & _ & Hp & HP & HW' & _ & Hs).
  apply Hcl in HP as (Er & Hh); auto.
Qed.

Lemma fin_fails_clean md (P : post bool) :
  (forall m own r m' r' ok, P m own r m' r' ok -> ok = false -> r' = r /\ heap m' = heap m) ->
  fails_clean (mapped (fin md) P).
Proof.
  intros H m own r m' r' o (ok & HP & ->) Hf. eapply H; [exact HP|]. destruct md, ok, Hf; (reflexivity || discriminate).
Qed.
Lemma fin_res_fails_clean {A} md okv (P : post (res A)) :
  (forall a, alloc_failure (okv a) = false) ->
  (forall m own r m' r' x, P m own r m' r' x -> (x = RErr -> r' = r /\ heap m' = heap m) /\ x <> RPanic PReserve) ->
  fails_clean (mapped (fun x => fin_res md x okv) P).
Proof.
  intros Hok H m own r m' r' o (x & HP & ->) Hf. apply H in HP as (He & Hp).
  destruct x as [a| |p]; cbn [fin_res] in Hf; [|auto|destruct p, Hf; try discriminate; contradiction].
  specialize (Hok a). destruct Hf as [E|E]; rewrite E in Hok; discriminate.
Qed.

Lemma insert_fails_clean md idx s : fails_clean (mapped (fin_unit md) (insert_post idx s)).
Proof.
  apply fin_res_fails_clean; [reflexivity|]. intros m own r m' r' x HP. split; [exact (ip_fail HP)|].
  intros ->. destruct (is_char_boundary (text_of m r) idx) eqn:Eb.
  - exact (proj2 (ip_nopanic HP Eb) _ eq_refl).
  - destruct (ip_panic HP Eb) as (E & _). discriminate.
Qed.
Lemma remove_fails_clean md idx :
  fails_clean (mapped (fun x => fin_res md x OkChar) (remove_post idx)).
Proof.
  apply fin_res_fails_clean; [reflexivity|]. intros m own r m' r' x HP.
  split; [exact (rm_fail HP)|]. intros ->. destruct (remove_ok_idx (text_of m r) idx) eqn:Eb.
  - exact (rm_nopanic HP Eb eq_refl).
  - destruct (rm_panic HP Eb) as (E & _). discriminate.
Qed.
Lemma retain_fails_clean md pred : fails_clean (mapped (fin_unit md) (retain_post pred)).
Proof.
  apply fin_res_fails_clean; [reflexivity|]. intros m own r m' r' x HP. split; [exact (rt_fail HP)|].
  intros ->. destruct (rt_done HP) as (_ & E); [discriminate|].
  destruct (retain_done (text_of m r) pred); discriminate.
Qed.

Theorem failure_changes_nothing w o i w' out :
  WF w -> simple_mutator o i -> exec w o = (w', out) -> is_reserve_failure out ->
  pool w' = pool w /\ heap (wmem w') = heap (wmem w) /\ statics (wmem w') = statics (wmem w) /\ WF w'.
Proof.
  intros HW Hsm He Hf. destruct Hsm as [m i c Hc|m i s Hs|m i idx c Hc|m i idx s Hs|m i idx|m i pa bits|m i n|m i n].
  - exact (failure_noop HW (push_str_op m _ (valid_char _ (encode_cp_ok _ Hc))) (fin_fails_clean m _ (@pp_fail _)) He Hf).
  - exact (failure_noop HW (push_str_op m s Hs) (fin_fails_clean m _ (@pp_fail s)) He Hf).
  - exact (failure_noop HW (insert_str_op m idx _ (valid_char _ (encode_cp_ok _ Hc)))
             (insert_fails_clean m idx _) He Hf).
  - exact (failure_noop HW (insert_str_op m idx s Hs) (insert_fails_clean m idx s) He Hf).
  - exact (failure_noop HW (remove_op m idx) (remove_fails_clean m idx) He Hf).
  - exact (failure_noop HW (retain_op m _) (retain_fails_clean m _) He Hf).
  - exact (failure_noop HW (reserve_op m n) (fin_fails_clean m _ (@rp_fail n)) He Hf).
  - exact (failure_noop HW (shrink_to_op m n) (fin_fails_clean m _ (fun m0 own r => sh_fail m0 own r n)) He Hf).
Qed.

(* C05: iterator-driven operations stop between items *)
Theorem iter_failure_prefix w i w' out items :
  WF w ->
  ((exists hint pa cs, scalars cs /\ items = map encode_cp cs /\ exec w (OExtendChars i hint pa cs) = (w', out))
   \/ (exists pa, Forall Valid items /\ exec w (OExtendStrs i pa items) = (w', out))
   \/ (exists ea pa, Forall Valid items /\ exec w (OWriteFmt i ea pa items) = (w', out))) ->
  out = PanicReserve -> forall r, nth_error (pool w) i = Some (Some r) ->
  exists r' n, nth_error (pool w') i = Some (Some r') /\ (n < length items)%nat
               /\ text_of (wmem w') r' = text_of (wmem w) r ++ concat (firstn n items) /\ WF w'.
Proof.
  intros HW Hcase -> r Hi.
  assert (exists f ea pa, inplace_op f (pieces_post items 0 ea pa) (pieces_fs items ea pa)
                          /\ exec_on w i f = (w', PanicReserve)) as (f & ea & pa & Hop & He).
  { destruct Hcase as [(hint & pa & cs & Hsc & -> & He)|[(pa & Hv & He)|(ea & pa & Hv & He)]].
    - eexists _, None, pa. exact (conj (extend_chars_op hint pa cs Hsc) He).
    - eexists _, None, pa. exact (conj (write_pieces_op items None pa Hv) He).
    - eexists _, ea, pa. exact (conj (write_pieces_op items ea pa Hv) He). }
  destruct (inplace_live HW Hop He Hi) as (r' & Hs & _ & HP & HW' & _).
  destruct (pc_fail HP eq_refl) as (n & Hn & Ht). exists r', n. auto.
Qed.

(* C06 / C11: capacity requests of any size *)
Theorem with_capacity_any w m n w' out :
  WF w -> exec w (OWithCapacity m n) = (w', out) ->
  WF w' /\ (forall u, out <> UbOut u)
  /\ ((out = OkUnit /\ exists r', pool w' = pool w ++ [Some r'] /\ n <= cap_of (wmem w') r' /\ text_of (wmem w') r' = []
                          /\ (n <= 16 -> nreq (wmem w') = nreq (wmem w) /\ is_heap r' = false)
                          /\ (16 < n -> nreq (wmem w') = nreq (wmem w) + 1 /\ cap_of (wmem w') r' = n))
      \/ (out = fin m false /\ pool w' = pool w ++ [None] /\ heap (wmem w') = heap (wmem w) /\ 16 < n)).
Proof.
  intros HW He.
  destruct (exec_ctor_sound HW (with_capacity_op w m n HW) He) as (s & m' & -> & (HP & ->) & HW' & _).
  cbn [append_slot pool wmem].
  split; [exact HW'|]. split; [intros u; destruct s; [discriminate|apply fin_not_ub]|].
  destruct s as [r'|].
  - left. split; [reflexivity|]. destruct (wc_some HP eq_refl) as (_ & Ht & Hc & _ & Hsm & Hbg).
    exists r'. split; [reflexivity|]. split; [exact Hc|]. split; [exact Ht|]. split.
    + intros Hn. destruct (Hsm Hn) as (-> & _ & Hq). auto.
    + intros Hn. destruct (Hbg Hn) as (_ & Hc' & Hq). auto.
  - right. destruct (wc_none HP eq_refl) as (_ & Hh & Hn). auto.
Qed.

Theorem reserve_any w m i n w' out r :
  WF w -> exec w (OReserve m i n) = (w', out) -> nth_error (pool w) i = Some (Some r) ->
  WF w' /\ (forall u, out <> UbOut u)
  /\ exists r' ok, nth_error (pool w') i = Some (Some r') /\ out = fin m ok
       /\ text_of (wmem w') r' = text_of (wmem w) r
       /\ (ok = true -> exclusive (heap (wmem w')) r' /\ repr_len r' + n <= cap_of (wmem w') r')
       /\ (ok = false -> pool w' = pool w /\ heap (wmem w') = heap (wmem w))
       /\ (xcl (wmem w) r -> repr_len r + n <= cap_of (wmem w) r ->
           ok = true /\ r' = r /\ heap (wmem w') = heap (wmem w) /\ nreq (wmem w') = nreq (wmem w))
       /\ (ok = true -> nreq (wmem w') <> nreq (wmem w) ->
           is_heap r' = true /\ cap_of (wmem w') r' = amortized_growth (repr_len r) n).
Proof.
  intros HW He Hi. destruct (inplace_live HW (reserve_op m n) He Hi)
    as (r' & Hslot & Hp & (ok & HP & ->) & HW' & _).
  split; [exact HW'|]. split; [intros u; apply fin_not_ub|]. exists r', ok.
  split; [exact Hslot|]. split; [reflexivity|]. split; [exact (rp_text HP)|]. split.
  - intros Hok. destruct (rp_ok HP Hok) as (H1 & H2). rewrite (rp_len HP). auto.
  - split.
    + intros Hok. destruct (rp_fail HP Hok) as (Er & Hh). auto.
    + split; [exact (rp_fits HP)|].
      intros Hok Hne. destruct (rp_grow HP Hok) as [(_ & _ & Hq)|[(H1 & H2 & _)|(_ & _ & _ & _ & Hq)]]; auto; contradiction.
Qed.

(* C07: an index panic changes nothing, and happens exactly when String panics *)
Inductive index_op : op -> nat -> Prop :=
| IO_insert m i idx c : is_scalar c = true -> index_op (OInsert m i idx c) i
| IO_insert_str m i idx s : Valid s -> index_op (OInsertStr m i idx s) i
| IO_remove m i idx : index_op (ORemove m i idx) i
| IO_truncate m i n : index_op (OTruncate m i n) i.

Definition index_checked (P : post outcome)
           (fs : list N -> list N * outcome) : Prop :=
  forall m own r m' r' o, handle_ok (heap m) (statics m) r -> P m own r m' r' o ->
    (snd (fs (text_of m r)) = PanicIndex -> o = PanicIndex)
    /\ (o = PanicIndex -> r' = r /\ heap m' = heap m /\ nreq m' = nreq m).

Definition index_verdict (w : world) (o : op) (w' : world) (out : outcome) : Prop :=
  (out = PanicIndex <-> snd (spec_exec (statics (wmem w)) (abs w) o) = PanicIndex)
  /\ (out = PanicIndex -> pool w' = pool w /\ heap (wmem w') = heap (wmem w) /\ nreq (wmem w') = nreq (wmem w)
                          /\ statics (wmem w') = statics (wmem w)).
Lemma index_checked_verdict {w i f P fs o w' out} :
  WF w -> inplace_op f P fs -> index_checked P fs -> exec_on w i f = (w', out) ->
  spec_exec (statics (wmem w)) (abs w) o = son (abs w) i fs -> index_verdict w o w' out.
Proof.
  intros HW Hop Hix He Hsp. unfold index_verdict. rewrite Hsp. unfold son. rewrite sget_abs.
  destruct (get_slot w i) as [r|] eqn:Hg; cbn [option_map].
  2:{ destruct (on_result_dead (inplace_result HW Hop He) Hg) as (-> & ->). split; [split|]; discriminate. }
  apply get_slot_nth in Hg. pose proof (wf_handle HW Hg) as Hr.
  destruct (inplace_live HW Hop He Hg) as (r' & _ & Hp & HP & _ & _ & Hs).
  destruct (io_matches Hop Hr HP) as (_ & Href). apply Hix in HP as (H1 & H2); [|exact Hr].
  destruct (fs (text_of (wmem w) r)) as [T o']. cbn [snd] in *. split; [split; [|exact H1]|].
  - intros ->. specialize (Href eq_refl). congruence.
  - intros E. destruct (H2 E) as (Er & Hh & Hn). auto.
Qed.

Lemma insert_index_checked md idx s :
  index_checked (mapped (fin_unit md) (insert_post idx s)) (insert_fs idx s).
Proof.
  intros m own r m' r' o _ (x & HP & ->). unfold insert_fs. destruct (is_char_boundary (text_of m r) idx) eqn:Eb.
  - split; [discriminate|]. destruct (ip_nopanic HP Eb) as (_ & Hn).
    destruct x as [[]| |p]; [discriminate|destruct md; discriminate|destruct (Hn p eq_refl)].
  - destruct (ip_panic HP Eb) as (-> & Hrest). auto.
Qed.
Lemma remove_index_checked md idx :
  index_checked (mapped (fun x => fin_res md x OkChar) (remove_post idx)) (remove_fs idx).
Proof.
  intros m own r m' r' o _ (x & HP & ->). unfold remove_fs. destruct (remove_ok_idx (text_of m r) idx) eqn:Eb.
  - split; [discriminate|]. pose proof (rm_nopanic HP Eb) as Hn.
    destruct x as [c| |p]; [discriminate|destruct md; discriminate|destruct (Hn p eq_refl)].
  - destruct (rm_panic HP Eb) as (-> & Hrest). auto.
Qed.
Lemma truncate_index_checked md n :
  index_checked (mapped (fin_unit md) (truncate_post n)) (truncate_fs n).
Proof.
  intros m own r m' r' o Hr (x & HP & ->). unfold truncate_fs. rewrite (text_len m r Hr). destruct (tr_heap HP) as (Hh & Hn & _).
  destruct (N.leb_spec (repr_len r) n) as [Hge|Hlt]; [|destruct (is_char_boundary (text_of m r) n) eqn:Eb].
  - destruct (tr_noop HP Hge) as (-> & _). split; discriminate.
  - destruct (tr_ok HP Hlt Eb) as (-> & _). split; discriminate.
  - destruct (tr_panic HP Hlt Eb) as (-> & Er). auto.
Qed.

Lemma index_op_verdict {w o i w' out} : WF w -> index_op o i -> exec w o = (w', out) -> index_verdict w o w' out.
Proof.
  intros HW Hio He. destruct Hio as [m i idx c Hc|m i idx s Hs|m i idx|m i n].
  - apply (index_checked_verdict HW (insert_str_op m idx _ (valid_char _ (encode_cp_ok _ Hc))) (insert_index_checked m idx _) He).
    reflexivity.
  - apply (index_checked_verdict HW (insert_str_op m idx s Hs) (insert_index_checked m idx s) He). reflexivity.
  - apply (index_checked_verdict HW (remove_op m idx) (remove_index_checked m idx) He). reflexivity.
  - apply (index_checked_verdict HW (truncate_op m n) (truncate_index_checked m n) He). reflexivity.
Qed.

(* C08: clone *)
Theorem clone_is_shallow w i w' out r :
  WF w -> exec w (OClone i) = (w', out) -> nth_error (pool w) i = Some (Some r) ->
  out = OkUnit /\ pool w' = pool w ++ [Some r] /\ nreq (wmem w') = nreq (wmem w)
  /\ text_of (wmem w') r = text_of (wmem w) r /\ statics (wmem w') = statics (wmem w)
  /\ match r with
     | Heap b _ => exists x, nth_error (heap (wmem w)) b = Some x /\ heap (wmem w') = upd (heap (wmem w)) b (bumped x)
     | _ => heap (wmem w') = heap (wmem w)
     end
  /\ WF w'.
Proof.
  intros HW He Hi. cbn [exec] in He. rewrite (proj2 (get_slot_nth w i r) Hi) in He.
  destruct (exec_ctor_sound HW (clone_op w i r HW Hi) He) as (s & m' & -> & (-> & -> & HP) & HW' & _ & Hs).
  pose proof (cn_nreq HP). pose proof (cn_text HP). pose proof (cn_heap HP). cbn [append_slot pool wmem]. auto 8.
Qed.
Theorem clone_from_is_shallow w i j w' out r src :
  WF w -> exec w (OCloneFrom i j) = (w', out) -> i <> j ->
  nth_error (pool w) i = Some (Some r) -> nth_error (pool w) j = Some (Some src) ->
  out = OkUnit /\ nth_error (pool w') i = Some (Some src) /\ nreq (wmem w') = nreq (wmem w)
  /\ text_of (wmem w') src = text_of (wmem w) src /\ WF w'.
Proof.
  intros HW He Hne Hi Hj.
  destruct (on_result_live (op_clone_from w i j src w' out HW Hj Hne He) Hi)
    as (r' & -> & (-> & -> & Hn & Ht) & HW' & _).
  cbn [set_slot pool wmem] in *. split; [reflexivity|]. split; [apply nth_error_upd_eq; eapply nth_error_lt; eauto|auto].
Qed.

(* C09: short texts never touch the heap; longer ones allocate once, exactly *)
Definition allocates_exactly (w : world) (m : mode) (t : list N) (w' : world) (out : outcome) : Prop :=
  (len t <= 16 -> out = OkUnit /\ nreq (wmem w') = nreq (wmem w) /\ heap (wmem w') = heap (wmem w)
                  /\ exists r', pool w' = pool w ++ [Some r'] /\ is_heap r' = false /\ is_static r' = false
                                /\ text_of (wmem w') r' = t)
  /\ (16 < len t -> (out = OkUnit /\ nreq (wmem w') = nreq (wmem w) + 1
                     /\ exists r', pool w' = pool w ++ [Some r'] /\ is_heap r' = true /\ cap_of (wmem w') r' = len t
                                   /\ text_of (wmem w') r' = t)
                    \/ (out = fin m false /\ pool w' = pool w ++ [None] /\ heap (wmem w') = heap (wmem w))).
(* from(&str) and from(integer) have the same specification, at the text [t] *)
Lemma text_ctor_alloc {w m t w' out} :
  ctor_result w w' out (opt_post m (from_str_post (wmem w) (refs (pool w)) t)) -> allocates_exactly w m t w' out.
Proof.
  intros (s & m' & -> & ([Hno Hso] & ->) & _). unfold allocates_exactly. cbn [append_slot pool wmem]. destruct s as [r'|].
  - destruct (Hso r' eq_refl) as (_ & Ht & Hsm & Hbg). split; intros Hl; [|left].
    + destruct (Hsm Hl) as (H1 & H2 & H3 & H4). eauto 10.
    + destruct (Hbg Hl) as (H1 & H2 & H3 & _). eauto 10.
  - destruct (Hno eq_refl) as (_ & Hh & Hb). split; intros Hl; [lia|right; auto].
Qed.

Theorem from_str_alloc w m t w' out :
  WF w -> Valid t -> exec w (OFromStr m t) = (w', out) -> allocates_exactly w m t w' out.
Proof. intros HW Hv He. exact (text_ctor_alloc (exec_ctor_sound HW (from_str_op w m t HW Hv) He)). Qed.
Theorem from_int_alloc w m t z w' out :
  gen_ok -> WF w -> (fst (int_range t) <= z <= snd (int_range t))%Z -> exec w (OFromInt m t z) = (w', out) ->
  allocates_exactly w m (dec z) w' out.
Proof.
  intros (Hlut & Htab) HW Hz He.
  exact (text_ctor_alloc (exec_ctor_sound HW (from_int_op w m t z _ _ HW Hlut (Htab t) Hz) He)).
Qed.

(* appending / inserting into an exclusively owned string within its capacity: no allocator request, same buffer *)
Theorem push_within_capacity w m i s w' out r :
  WF w -> Valid s -> exec w (OPushStr m i s) = (w', out) -> nth_error (pool w) i = Some (Some r) ->
  xcl (wmem w) r -> repr_len r + len s <= cap_of (wmem w) r ->
  out = OkUnit /\ nreq (wmem w') = nreq (wmem w)
  /\ exists r', nth_error (pool w') i = Some (Some r') /\ (forall b, names r' b = names r b) /\ is_heap r' = is_heap r
                /\ text_of (wmem w') r' = text_of (wmem w) r ++ s.
Proof.
  intros HW Hv He Hi Hex Hfit.
  destruct (inplace_live HW (push_str_op m s Hv) He Hi) as (r' & Hslot & _ & (ok & HP & ->) & _).
  destruct (pp_fits HP Hex Hfit) as (-> & Hn & Hnm & Hh). pose proof (pp_ok HP eq_refl). eauto 8.
Qed.
Theorem insert_within_capacity w m i idx s w' out r :
  WF w -> Valid s -> exec w (OInsertStr m i idx s) = (w', out) -> nth_error (pool w) i = Some (Some r) ->
  is_char_boundary (text_of (wmem w) r) idx = true ->
  xcl (wmem w) r -> repr_len r + len s <= cap_of (wmem w) r ->
  out = OkUnit /\ nreq (wmem w') = nreq (wmem w)
  /\ exists r', nth_error (pool w') i = Some (Some r') /\ (forall b, names r' b = names r b) /\ is_heap r' = is_heap r
                /\ text_of (wmem w') r' = insert_text (text_of (wmem w) r) idx s.
Proof.
  intros HW Hv He Hi Hb Hex Hfit.
  destruct (inplace_live HW (insert_str_op m idx s Hv) He Hi) as (r' & Hslot & _ & (res & HP & ->) & _).
  destruct (ip_fits HP Hb Hex Hfit) as (-> & Hn & Hnm & Hh). pose proof (ip_ok HP eq_refl).
  eauto 8.
Qed.

(* C12: growth *)
Theorem push_growth w m i s w' out r :
  WF w -> Valid s -> exec w (OPushStr m i s) = (w', out) -> nth_error (pool w) i = Some (Some r) ->
  out = OkUnit -> nreq (wmem w') <> nreq (wmem w) ->
  exists r', nth_error (pool w') i = Some (Some r') /\ is_heap r' = true
             /\ cap_of (wmem w') r' = amortized_growth (repr_len r) (len s) /\ nreq (wmem w') = nreq (wmem w) + 1.
Proof.
  intros HW Hv He Hi -> Hne.
  destruct (inplace_live HW (push_str_op m s Hv) He Hi) as (r' & Hslot & _ & (ok & HP & ->%fin_OkUnit) & _).
  destruct (pp_grow HP eq_refl) as [Hn|(H1 & H2 & H3)]; [contradiction|]. exists r'. auto.
Qed.
(* both bounds of the property, for every old length and request in the region where nothing saturates *)
Theorem growth_bounds l a :
  l <= MAX_LEN -> amortized_growth l a <= MAX_LEN ->
  l + l / 2 <= amortized_growth l a /\ l + a <= amortized_growth l a
  /\ amortized_growth l a <= N.max (l + l / 2) (l + a).
Proof.
  intros _ Hc. rewrite (growth_accepted l a Hc). lia.
Qed.

(* C13: shrinking *)
Theorem shrink_result w m i n w' out r :
  WF w -> exec w (OShrinkTo m i n) = (w', out) -> nth_error (pool w) i = Some (Some r) ->
  exists r' ok, nth_error (pool w') i = Some (Some r') /\ out = fin m ok /\ WF w'
    /\ shrink_post (wmem w) (refs (pool w)) r n (wmem w') r' ok /\ others_same w i (wmem w').
Proof.
  intros HW He Hi.
  destruct (inplace_live HW (shrink_to_op m n) He Hi) as (r' & Hslot & _ & (ok & HP & ->) & HW' & Ho & _).
  exists r', ok. auto.
Qed.

(* C10: static handles *)
Definition shortens_static (K : N -> Prop) (P : post outcome) : Prop :=
  forall m own s l m' r' o, P m own (Static s l) m' r' o ->
    heap m' = heap m /\ nreq m' = nreq m /\ exists n, K n /\ n <= l /\ r' = Static s n.

Lemma static_keeps {K w i f P fs w' out s l} :
  WF w -> inplace_op f P fs -> shortens_static K P -> exec_on w i f = (w', out) ->
  nth_error (pool w) i = Some (Some (Static s l)) ->
  heap (wmem w') = heap (wmem w) /\ nreq (wmem w') = nreq (wmem w) /\ statics (wmem w') = statics (wmem w)
  /\ exists l', nth_error (pool w') i = Some (Some (Static s l')) /\ l' <= l /\ K l'.
Proof.
  intros HW Hop Hk He Hi. destruct (inplace_live HW Hop He Hi) as (r' & Hslot & _ & HP & _ & _ & Hs).
  apply Hk in HP as (Hh & Hn & n & HK & Hle & ->). eauto 8.
Qed.

Lemma pop_shortens_static : shortens_static (fun _ => True) (mapped pop_out pop_post).
Proof.
  intros m own s l m' r' o (res & HP & _). destruct (po_heap HP) as (Hh & Hn & _). split; [exact Hh|]. split; [exact Hn|].
  destruct (po_handle HP) as [->|(n & Hn' & ->)]; [exists l|exists n]; auto using N.le_refl.
Qed.
Lemma truncate_shortens_static md n :
  shortens_static (fun _ => True) (mapped (fin_unit md) (truncate_post n)).
Proof.
  intros m own s l m' r' o (res & HP & _). destruct (tr_heap HP) as (Hh & Hn & _). split; [exact Hh|]. split; [exact Hn|].
  destruct (tr_handle HP) as [->|(Hn' & ->)]; [exists l|exists n]; auto using N.le_refl.
Qed.
Lemma clear_shortens_static : shortens_static (fun n => n = 0) (fun m own r m' r' o => clear_post m own r m' r' /\ o = OkUnit).
Proof.
  intros m own s l m' r' o (HP & _). destruct (cl_static HP eq_refl) as (-> & Hh).
  split; [exact Hh|]. split; [exact (cl_nreq HP)|]. exists 0. split; [reflexivity|]. split; [lia|reflexivity].
Qed.

Theorem static_ctor w s t w' out :
  WF w -> nth_error (statics (wmem w)) s = Some t -> exec w (OFromStatic s) = (w', out) ->
  heap (wmem w') = heap (wmem w) /\ nreq (wmem w') = nreq (wmem w) /\ statics (wmem w') = statics (wmem w)
  /\ (16 < len t -> len t <= STATIC_MAX_LENGTH -> out = OkUnit /\ pool w' = pool w ++ [Some (Static s (len t))]).
Proof.
  intros HW Hs He. cbn [exec] in He.
  destruct (exec_ctor_sound HW (from_static_op w s t HW Hs) He) as (o & m' & -> & (Hh & Hn & HP) & _ & _ & Hst).
  cbn [append_slot pool wmem]. split; [exact Hh|]. split; [exact Hn|]. split; [exact Hst|]. intros Hb Hm.
  destruct HP as [(_ & _ & Hbig)|(r' & -> & -> & _ & Hr)]; [lia|]. rewrite (Hr Hb). auto.
Qed.
(* the first write moves the handle to storage of its own *)
Theorem static_first_write w m i x w' out s l :
  WF w -> Valid x -> nth_error (pool w) i = Some (Some (Static s l)) -> exec w (OPushStr m i x) = (w', out) ->
  x <> [] -> out = OkUnit ->
  exists r', nth_error (pool w') i = Some (Some r') /\ is_static r' = false
             /\ text_of (wmem w') r' = text_of (wmem w) (Static s l) ++ x /\ statics (wmem w') = statics (wmem w).
Proof.
  intros HW Hv Hi He Hne ->.
  destruct (inplace_live HW (push_str_op m x Hv) He Hi) as (r' & Hslot & _ & (ok & HP & ->%fin_OkUnit) & _ & _ & Hs).
  exists r'. split; [exact Hslot|]. split; [|split; [exact (pp_ok HP eq_refl)|exact Hs]].
  pose proof (pp_excl HP eq_refl Hne) as Hex. destruct r'; [reflexivity|reflexivity|contradiction].
Qed.

(* C18: a panicking callback *)
Theorem retain_panic_state w m i pa bits w' out r :
  WF w -> exec w (ORetain m i pa bits) = (w', out) -> nth_error (pool w) i = Some (Some r) ->
  out = PanicUser ->
  exists r', nth_error (pool w') i = Some (Some r') /\ WF w'
             /\ text_of (wmem w') r' = retain_text (text_of (wmem w) r) (retain_pred pa bits)
             /\ retain_done (text_of (wmem w) r) (retain_pred pa bits) = false.
Proof.
  intros HW He Hi ->.
  destruct (inplace_live HW (retain_op m _) He Hi) as (r' & Hslot & _ & (res & HP & Eo) & HW' & _).
  exists r'. split; [exact Hslot|]. split; [exact HW'|].
  destruct res as [[]| |p]; cbn [fin_unit fin_res] in Eo; [discriminate|destruct m; discriminate|].
  destruct (rt_done HP ltac:(discriminate)) as (Ht & E). split; [exact Ht|].
  destruct (retain_done (text_of (wmem w) r) (retain_pred pa bits)); [discriminate|reflexivity].
Qed.
(* a constructor whose callback panics (or whose allocation fails) leaves no accumulator behind: the new slot is
   empty and the heap invariant (every live buffer is named by a slot) still holds *)
Theorem ctor_panic_no_garbage w o w' out :
  gen_ok -> WF w -> op_wf (statics (wmem w)) o -> target o = None -> exec w o = (w', out) ->
  out <> OkUnit -> out <> Skip -> WF w' /\ pool w' = pool w ++ [None].
Proof.
  intros Hg HW Hwf Ht He Hne Hns.
  destruct (no_target_appends Hg HW Hwf Ht He) as (s & m' & v & -> & HW' & _ & _ & (_ & [-> | ->]) & _);
    [auto|contradiction].
Qed.
