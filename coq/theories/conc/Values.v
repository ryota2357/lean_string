(* Values.v — what a thread can READ from the reference count.
   Every value an atomic operation of thread t returns — the head of the modification order for its RMWs (clone,
   release), any message a possibly stale acquire load may still read (probe) — is at least the number of references t
   itself holds.  So the count a thread reads is always "its own references + a non-negative contribution of the other
   threads": the form the thread-local (view) semantics of Cmd.run gives it ([count x + ext_now m]). *)
From Coq Require Import List Arith Lia Bool.
Import ListNotations.
From LSConc Require Import Clock Mach StepSpec Inv.

Lemma firstn_forallb_unseen s t p :
  forallb (fun m' => negb (hbb m' (clk (getth s t)))) (firstn p (msgs s)) = true ->
  lends_from s t = false -> unseen s t p.
Proof.
  intros Hf Hl. exact (unseen_no_borrower s t p (forallb_unseen_by Hf) (proj1 (lends_from_false s t) Hl)).
Qed.

Theorem rmw_value_ge_refs s t a s' :
  Inv s -> a = AClone \/ a = ACloneB \/ a = ARelease -> step s t a = Ok s' -> refs (getth s t) <= val (hdm s).
Proof.
  intros I Ha H. apply step_ready in H as G.
  assert (Hr : reaches s t) by (destruct Ha as [-> | [-> | ->]]; [left|right; left|left]; apply G).
  destruct (J1 s I (reaches_live s t I Hr)) as (_ & ->). apply refs_le_total.
Qed.

(* whichever message a probe reads, nothing newer has reached the thread: J11 *)
Theorem probe_value_ge_refs s t p m s' :
  Inv s -> step s t (AProbe p) = Ok s' -> nth_error (msgs s) p = Some m -> refs (getth s t) <= val m.
Proof.
  intros I H Hm. apply step_ok in H as (_ & _ & (Hr & _) & _ & F & _). cbn [fresh] in F. rewrite Hm in F.
  exact (J11 s I t p m Hr Hm (forallb_unseen_by F)).
Qed.
