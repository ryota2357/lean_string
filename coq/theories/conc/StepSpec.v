(* StepSpec.v — [Mach.step] taken apart: when an action is enabled ([ready]), which error it reports ([check]), what it
   does ([effect]); and what one step does to the acting thread's local state and to nobody else's ([step_spec]). *)
From Coq Require Import List Arith Lia Bool.
Import ListNotations.
From LSConc Require Import Clock Mach.

Lemma upd_length {A} (l : list A) n x : length (upd l n x) = length l.
Proof. revert n; induction l; destruct n; cbn; auto. Qed.
Lemma nth_upd_eq {A} (l : list A) n x d : n < length l -> nth n (upd l n x) d = x.
Proof. revert n; induction l as [|y l IH]; intros [|n] H; cbn in *; try lia; auto. apply IH; lia. Qed.
Lemma nth_upd_ne {A} (l : list A) n m x d : m <> n -> nth m (upd l n x) d = nth m l d.
Proof. revert n m; induction l as [|y l IH]; intros [|n] [|m] H; cbn; try lia; auto. Qed.

Lemma lends_from_spec s p : lends_from s p = true <-> exists c, lend (getth s c) = S p.
Proof.
  unfold lends_from, getth. rewrite existsb_exists. split.
  - intros (x & Hin & Hx). apply Nat.eqb_eq in Hx. destruct (In_nth _ _ dth Hin) as (c & _ & Hc). exists c. congruence.
  - intros (c & Hc). exists (nth c (ths s) dth). split; [|apply Nat.eqb_eq; exact Hc].
    destruct (Nat.lt_ge_cases c (length (ths s))); [apply nth_In; assumption|].
    rewrite nth_overflow in Hc by assumption. discriminate.
Qed.

Lemma lends_from_false s p : lends_from s p = false <-> forall c, lend (getth s c) <> S p.
Proof.
  rewrite <- Bool.not_true_iff_false, lends_from_spec. split; [intros H c Hc; apply H; eauto|intros H (c & Hc); exact (H c Hc)].
Qed.

(* a lender keeps the handle it has lent: an action that gives handles away leaves it r > 0 of them *)
Definition keeps (s : st) (t r : nat) : Prop := lends_from s t = false \/ 0 < r.
Lemma keeps_lent {s t r c} : keeps s t r -> lend (getth s c) = S t -> 0 < r.
Proof. intros [Hf|Hr] Hc; [destruct (proj1 (lends_from_false s t) Hf c Hc)|exact Hr]. Qed.

(* the guards of [step], as written there: the action is not a step of thread t *)
Definition stuck (s : st) (t : nat) (a : act) : bool :=
  let x := getth s t in
  match a with
  | ARead | AClone => negb (Nat.ltb 0 (refs x))
  | AWrite => negb (excl x) || lends_from s t
  | ARelease => negb (Nat.ltb 0 (refs x)) || mustfree x || (lends_from s t && Nat.leb (refs x) 1)
  | AFree | AReadM => negb (mustfree x && cleb (pend x) (clk x))
  | AProbe _ => negb (Nat.ltb 0 (refs x)) || (lends_from s t && Nat.leb (refs x) 1)
  | ASpawn c k => Nat.eqb c t || negb (Nat.ltb c (length (ths s))) || started (getth s c) || negb (Nat.leb k (refs x))
                  || (lends_from s t && Nat.leb (refs x - k) 0)
  | AJoin c => let y := getth s c in Nat.eqb c t || negb (started y) || Nat.ltb 0 (refs y) || mustfree y
  | AFence => false
  | ALend c => Nat.eqb c t || negb (Nat.ltb c (length (ths s))) || started (getth s c) || negb (Nat.ltb 0 (refs x))
               || negb (Nat.eqb (lend x) 0)
  | AReadB | ACloneB => Nat.eqb (lend x) 0
  | AJoinB c => let y := getth s c in
                Nat.eqb c t || negb (Nat.ltb c (length (ths s))) || negb (Nat.eqb (lend y) (S t)) || Nat.ltb 0 (refs y)
                || mustfree y
  end.

Definition ready (s : st) (t : nat) (a : act) : Prop :=
  let x := getth s t in
  match a with
  | ARead | AClone => 0 < refs x
  | AWrite => excl x = true /\ lends_from s t = false
  | ARelease => 0 < refs x /\ mustfree x = false /\ keeps s t (refs x - 1)
  | AFree | AReadM => mustfree x = true /\ cle (pend x) (clk x)
  | AProbe _ => 0 < refs x /\ keeps s t (refs x - 1)
  | ASpawn c k => c <> t /\ c < length (ths s) /\ started (getth s c) = false /\ k <= refs x /\ keeps s t (refs x - k)
  | AJoin c => c <> t /\ started (getth s c) = true /\ refs (getth s c) = 0 /\ mustfree (getth s c) = false
  | AFence => True
  | ALend c => c <> t /\ c < length (ths s) /\ started (getth s c) = false /\ 0 < refs x /\ lend x = 0
  | AReadB | ACloneB => lend x <> 0
  | AJoinB c => c <> t /\ c < length (ths s) /\ lend (getth s c) = S t /\ refs (getth s c) = 0
                /\ mustfree (getth s c) = false
  end.

Lemma stuck_spec s t a : stuck s t a = false <-> ready s t a.
Proof.
  destruct a; cbn [stuck ready]; unfold keeps;
    rewrite ?orb_false_iff, ?negb_false_iff, ?andb_false_iff, ?andb_true_iff, ?Nat.ltb_lt, ?Nat.ltb_ge, ?Nat.leb_le,
      ?Nat.leb_gt, ?Nat.eqb_eq, ?Nat.eqb_neq, ?cleb_spec; intuition lia.
Qed.

Definition check (s : st) (t : nat) (a : act) : option err :=
  let x := getth s t in
  let ordered (b : bool) := if b then None else Some Race in
  match a with
  | ARead | AReadM | AReadB => if live s then ordered (cleb (Wc s) (clk x)) else Some UAF
  | AWrite => if live s then ordered (cleb (Wc s) (clk x) && cleb (Rc s) (clk x)) else Some UAF
  | AClone | ACloneB | ARelease | AProbe _ => if live s then None else Some UAF
  | AFree => if live s then let c' := tick (join (clk x) (pend x)) t in ordered (cleb (Wc s) c' && cleb (Rc s) c')
             else Some DoubleFree
  | _ => None
  end.

(* a probe reads a message that nothing newer has reached the thread *)
Definition fresh (s : st) (t : nat) (a : act) : bool :=
  match a with
  | AProbe p => match nth_error (msgs s) p with
                | Some _ => forallb (fun m' => negb (hbb m' (clk (getth s t)))) (firstn p (msgs s))
                | None => false
                end
  | _ => true
  end.

Definition acting (x : th) (c p : clock) (r : nat) (e m : bool) : th :=
  {| clk := c; pend := p; refs := r; excl := e; mustfree := m; started := true; lend := lend x |}.
Definition set_clk (x : th) (c : clock) : th := acting x c (pend x) (refs x) (excl x) (mustfree x).
Definition fresh_th (c : clock) (k L : nat) : th :=
  {| clk := c; pend := []; refs := k; excl := false; mustfree := false; started := true; lend := L |}.
Definition set_Rc (s : st) (R : clock) : st := {| msgs := msgs s; Wc := Wc s; Rc := R; live := live s; ths := ths s |}.
Definition set_Wc (s : st) (W : clock) : st := {| msgs := msgs s; Wc := W; Rc := Rc s; live := live s; ths := ths s |}.
Definition push (s : st) (m : msg) : st :=
  {| msgs := m :: msgs s; Wc := Wc s; Rc := Rc s; live := live s; ths := ths s |}.
Definition kill (s : st) : st := {| msgs := msgs s; Wc := Wc s; Rc := Rc s; live := false; ths := ths s |}.

Definition acted (s : st) (t : nat) (a : act) : th :=
  let x := getth s t in
  let c' := tick (clk x) t in
  match a with
  | ARead | AWrite | AReadM | AReadB => set_clk x c'
  | AClone | ACloneB => acting x c' (join (pend x) (view (hdm s))) (S (refs x)) false (mustfree x)
  | ARelease => acting x c' (join (pend x) (view (hdm s))) (refs x - 1) false (Nat.eqb (val (hdm s)) 1)
  | AFree => acting x (tick (join (clk x) (pend x)) t) (pend x) (refs x) false false
  | AProbe p =>
      match nth_error (msgs s) p with
      | Some m => acting x (tick (join (clk x) (view m)) t) (pend x) (refs x) (excl x || Nat.eqb (val m) 1) (mustfree x)
      | None => x
      end
  | ASpawn _ k => acting x c' (pend x) (refs x - k) false (mustfree x)
  | AJoin c | AJoinB c => set_clk x (tick (join (clk x) (clk (getth s c))) t)
  | AFence => set_clk x (join (clk x) (pend x))
  | ALend _ =>
      {| clk := c'; pend := pend x; refs := refs x; excl := false; mustfree := mustfree x; started := true; lend := 0 |}
  end.

(* the thread it starts, or whose loan it ends *)
Definition other (s : st) (t : nat) (a : act) : option (nat * th) :=
  let c' := tick (clk (getth s t)) t in
  match a with
  | ASpawn c k => Some (c, fresh_th (tick c' c) k 0)
  | ALend c => Some (c, fresh_th (tick c' c) 0 (S t))
  | AJoinB c => let y := getth s c in
                Some (c, {| clk := clk y; pend := pend y; refs := refs y; excl := excl y; mustfree := mustfree y;
                            started := started y; lend := 0 |})
  | _ => None
  end.

Definition effect (s : st) (t : nat) (a : act) : st :=
  let x' := acted s t a in
  let s1 := with_th s t x' in
  let s2 := match other s t a with Some (c, y) => with_th s1 c y | None => s1 end in
  match a with
  | ARead | AReadM | AReadB => set_Rc s2 (setc (Rc s) t (get (clk x') t))
  | AWrite => set_Wc s2 (setc (Wc s) t (get (clk x') t))
  | AClone | ACloneB => push s2 {| val := S (val (hdm s)); view := view (hdm s); wt := t; we := get (clk x') t |}
  | ARelease => push s2 {| val := val (hdm s) - 1; view := join (view (hdm s)) (clk x'); wt := t; we := get (clk x') t |}
  | AFree => kill s2
  | _ => s2
  end.

Lemma step_view s t a :
  step s t a = if negb (Nat.ltb t (length (ths s))) || negb (started (getth s t)) || stuck s t a then Stuck
               else match check s t a with
                    | Some e => Err e
                    | None => if fresh s t a then Ok (effect s t a) else Stuck
                    end.
Proof.
  assert (C : forall (b : bool) e o K, match (if b then o else Some e) with Some e' => Err e' | None => K end
                                       = if negb b then Err e else match o with Some e' => Err e' | None => K end)
    by (intros [|]; reflexivity).
  unfold step. destruct (Nat.ltb t (length (ths s))); [|reflexivity]. destruct (started (getth s t)); [|reflexivity].
  cbn [negb orb]. destruct a; cbn [stuck check fresh effect acted other]; rewrite ?C; try reflexivity.
  destruct (nth_error (msgs s) p); [destruct (forallb _ _)|]; reflexivity.
Qed.

Lemma step_ok s t a s' : step s t a = Ok s' <->
  t < length (ths s) /\ started (getth s t) = true /\ ready s t a /\ check s t a = None /\ fresh s t a = true
  /\ s' = effect s t a.
Proof.
  rewrite step_view, <- stuck_spec, <- Nat.ltb_lt. split.
  - destruct (Nat.ltb t (length (ths s))), (started (getth s t)), (stuck s t a), (check s t a), (fresh s t a);
      try discriminate. intros [= <-]. auto 7.
  - intros (-> & -> & -> & -> & -> & ->). reflexivity.
Qed.
Lemma step_ready {s t a s'} : step s t a = Ok s' -> ready s t a.
Proof. intros H. apply step_ok in H. apply H. Qed.
Lemma step_err s t a e : step s t a = Err e -> ready s t a /\ check s t a = Some e.
Proof.
  rewrite step_view, <- stuck_spec.
  destruct (Nat.ltb t (length (ths s))), (started (getth s t)), (stuck s t a), (check s t a), (fresh s t a);
    try discriminate; intros [= <-]; auto.
Qed.

Definition second (a : act) : option nat :=
  match a with ASpawn c _ | ALend c | AJoinB c => Some c | _ => None end.

Definition same_local (x x' : th) : Prop :=
  refs x' = refs x /\ excl x' = excl x /\ mustfree x' = mustfree x /\ pend x' = pend x /\ cle (clk x) (clk x').

Definition same_local_but_excl (x x' : th) : Prop :=
  refs x' = refs x /\ excl x' = false /\ mustfree x' = mustfree x /\ pend x' = pend x /\ cle (clk x) (clk x').

Definition act_spec (s : st) (t : nat) (a : act) (s' : st) : Prop :=
  let x := getth s t in let x' := getth s' t in
  match a with
  | ARead => (0 < refs x) /\ same_local x x'
  | AWrite => excl x = true /\ same_local x x'
  | AClone => (0 < refs x) /\ refs x' = S (refs x) /\ excl x' = false /\ mustfree x' = mustfree x
  | ARelease => (0 < refs x) /\ mustfree x = false /\ refs x' = refs x - 1 /\ excl x' = false
                /\ mustfree x' = Nat.eqb (val (hdm s)) 1
  | AFree => mustfree x = true /\ refs x' = refs x /\ excl x' = false /\ mustfree x' = false /\ pend x' = pend x
             /\ cle (clk x) (clk x')
  | AProbe p => (0 < refs x) /\ exists m, nth_error (msgs s) p = Some m /\ refs x' = refs x
                /\ excl x' = (excl x || Nat.eqb (val m) 1) /\ mustfree x' = mustfree x /\ pend x' = pend x
                /\ cle (clk x) (clk x')
  | ASpawn c k => c <> t /\ k <= refs x /\ started (getth s c) = false /\ c < length (ths s)
                  /\ refs x' = refs x - k /\ excl x' = false /\ mustfree x' = mustfree x /\ pend x' = pend x
                  /\ cle (clk x) (clk x')
                  /\ refs (getth s' c) = k /\ excl (getth s' c) = false /\ mustfree (getth s' c) = false
                  /\ pend (getth s' c) = [] /\ started (getth s' c) = true /\ lend (getth s' c) = 0
  | AJoin c => same_local x x'
  | AFence => refs x' = refs x /\ excl x' = excl x /\ mustfree x' = mustfree x /\ pend x' = pend x
              /\ cle (clk x) (clk x') /\ cle (pend x) (clk x')
  | AReadM => mustfree x = true /\ same_local x x'
  | ALend c => same_local_but_excl x x'
  | AReadB => same_local x x'
  | AJoinB c => same_local x x'
  | ACloneB => refs x' = S (refs x) /\ excl x' = false /\ mustfree x' = mustfree x
  end.

Lemma effect_frame s t a : t < length (ths s) -> ready s t a ->
  getth (effect s t a) t = acted s t a /\ length (ths (effect s t a)) = length (ths s)
  /\ (forall u, u <> t -> second a <> Some u -> getth (effect s t a) u = getth s u)
  /\ (forall c y, other s t a = Some (c, y) -> getth (effect s t a) c = y).
Proof.
  intros Ht G.
  assert (Et : ths (effect s t a) = match other s t a with
                                    | Some (c, y) => upd (upd (ths s) t (acted s t a)) c y
                                    | None => upd (ths s) t (acted s t a)
                                    end) by (destruct a; reflexivity).
  assert (Ho : forall c y, other s t a = Some (c, y) -> c <> t /\ c < length (ths s))
    by (destruct a; try discriminate; intros ? ? [= <- _]; split; apply G).
  assert (E2 : second a = option_map fst (other s t a)) by (destruct a; reflexivity).
  unfold getth. rewrite Et, E2. destruct (other s t a) as [[c y]|]; cbn [option_map fst].
  - destruct (Ho c y eq_refl) as (Hct & Hc). rewrite !upd_length. repeat split.
    + rewrite nth_upd_ne by auto. apply nth_upd_eq; exact Ht.
    + intros u Hu Huc. rewrite !nth_upd_ne; congruence.
    + intros c0 y0 [= <- <-]. apply nth_upd_eq. rewrite upd_length; exact Hc.
  - rewrite upd_length. repeat split; [apply nth_upd_eq; exact Ht|intros; apply nth_upd_ne; auto|discriminate].
Qed.

(* the conjuncts of [act_spec] are guard facts, field projections of a record literal, or clock inequalities *)
Local Ltac fields G :=
  repeat split; cbn [set_clk acting clk]; try apply G; auto using cle_tick, cle_tick_join, cle_join_l, cle_join_r.

Lemma step_spec s t a s' : step s t a = Ok s' ->
  t < length (ths s) /\ started (getth s t) = true /\ started (getth s' t) = true
  /\ length (ths s') = length (ths s)
  /\ (forall u, u <> t -> second a <> Some u -> getth s' u = getth s u)
  /\ lend (getth s' t) = lend (getth s t)
  /\ act_spec s t a s'.
Proof.
  intros H. apply step_ok in H as (Ht & Hst & G & _ & F & ->).
  destruct (effect_frame s t a Ht G) as (E & L & O & E2). unfold act_spec. rewrite E.
  split; [exact Ht|]. split; [exact Hst|]. split; [|split; [exact L|split; [exact O|]]].
  - destruct a; try reflexivity. cbn [acted]. destruct (nth_error (msgs s) p); [reflexivity|exact Hst].
  - destruct a; cbn [ready fresh other] in G, F, E2; try rewrite (E2 _ _ eq_refl); cbn [acted]; try (fields G; fail).
    + destruct (nth_error (msgs s) p) as [m|]; [|discriminate]. split; [reflexivity|]. split; [apply G|]. exists m. fields G.
    + split; [symmetry; apply G|fields G].
Qed.

Lemma step_other {s t a s' c y} : step s t a = Ok s' -> other s t a = Some (c, y) -> getth s' c = y.
Proof.
  intros H Ho. apply step_ok in H as (Ht & _ & G & _ & _ & ->). apply (effect_frame s t a Ht G). exact Ho.
Qed.
