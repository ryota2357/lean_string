From Coq Require Import List Arith Lia Bool.
Import ListNotations.
From LSConc Require Import Clock Mach StepSpec Inv Pres Values.

Lemma T_init n u : T (init n) u = if Nat.eqb u 0 then nth 0 (ths (init n)) dth else dth.
Proof.
  unfold T, getth, init. cbn [ths]. destruct u as [|u]; cbn [Nat.eqb nth]; [reflexivity|].
  clear. revert u. induction n as [|n IH]; intros u; cbn [repeat].
  - destruct u; reflexivity.
  - destruct u as [|u]; cbn [nth]; [reflexivity|apply IH].
Qed.

Lemma total_repeat n : total (repeat dth n) = 0.
Proof. induction n; cbn; auto. Qed.

Lemma inv_init n : Inv (init n).
Proof.
  constructor.
  - intros _. split; [discriminate|]. cbn. rewrite total_repeat. reflexivity.
  - intros t. rewrite T_init. destruct t; cbn; [intros _; apply cle_refl | lia].
  - intros u. left. unfold init; cbn [Rc]. rewrite get_nil. lia.
  - intros t. rewrite T_init. destruct t; cbn; discriminate.
  - intros t. rewrite T_init. destruct t; cbn; discriminate.
  - cbn. discriminate.
  - intros t p m _ Hp Hn. cbn in Hn. destruct p as [|p]; [lia|]. destruct p; discriminate.
  - intros t. rewrite T_init. destruct t; cbn; [discriminate|auto].
  - cbn. rewrite total_repeat. intros _ H. discriminate H.
  - intros c p. rewrite T_init. destruct c; cbn; discriminate.
  - intros t p m. rewrite T_init. destruct p as [|[|p]]; cbn [init msgs nth_error]; try discriminate.
    intros Hr [= <-] _. cbn [val]. destruct t; cbn in *; lia.
Qed.

(* every schedule, any number of threads, any (well-typed) action at each step, stale probes included *)
Theorem all_schedules_safe n (sched : list (nat * act)) :
  match run (init n) sched with Err _ => False | _ => True end.
Proof.
  generalize (init n) (inv_init n). induction sched as [|[t a] l IH]; intros s I; cbn [run]; [exact Logic.I|].
  destruct (step s t a) as [s1|e|] eqn:E; [exact (IH s1 (pres s t a s1 I E))|exact (safe s t a I e E)|exact Logic.I].
Qed.

Lemma run_inv l : forall s s', Inv s -> run s l = Ok s' -> Inv s'.
Proof.
  induction l as [|[t a] l IH]; intros s s' I H; cbn [run] in H; [injection H as <-; exact I|].
  destruct (step s t a) as [s1|e|] eqn:E; try discriminate. exact (IH s1 s' (pres s t a s1 I E) H).
Qed.

(* what makes each thread's view sequential: while a thread holds a reference nobody else can modify or release the
   buffer — a write (or realloc) step is only possible for the one and only holder, a free step only when nobody holds *)
Theorem write_excludes_others s u s' : Inv s -> step s u AWrite = Ok s' -> forall t, t <> u -> refs (getth s t) = 0.
Proof.
  intros I H t Hne. apply step_ready in H as (He & _).
  destruct (Nat.eq_0_gt_0_cases (refs (getth s t))) as [E|E]; [exact E|destruct (Hne (excl_refs s u t I He E))].
Qed.
Theorem free_excludes_holders s u s' : Inv s -> step s u AFree = Ok s' -> forall t, refs (getth s t) = 0.
Proof.
  intros I H t. apply step_ready in H as (Hm & _).
  destruct (Nat.eq_0_gt_0_cases (refs (getth s t))) as [E|E]; [exact E|destruct (mustfree_no_refs s u t I Hm E)].
Qed.

(* multi-step form: however the other threads are scheduled, while thread t holds a reference (and does not itself
   move) none of their successful steps is a write / realloc or a free of the buffer, and t's local state is untouched:
   what t reads through its handle is what was there when it last looked or wrote *)
Theorem no_interference_while_held t : forall sched s s',
  Inv s -> refs (getth s t) > 0 -> Forall (fun ua => fst ua <> t) sched -> run s sched = Ok s' ->
  Forall (fun ua => snd ua <> AWrite /\ snd ua <> AFree) sched /\ getth s' t = getth s t /\ Mach.live s' = true.
Proof.
  induction sched as [|[u a] l IH]; intros s s' I Hr Hne Hrun; cbn [run] in Hrun.
  - injection Hrun as <-. split; [constructor|]. split; [reflexivity|exact (refs_live s t I Hr)].
  - inversion Hne as [|? ? Hu Hne']; subst. cbn [fst] in Hu.
    destruct (step s u a) as [s1|e|] eqn:E; try discriminate.
    destruct (step_spec s u a s1 E) as (_ & _ & _ & _ & Hoth & _). pose proof (step_ready E) as G.
    assert (Hsame : getth s1 t = getth s t).
    { (* t is started and holds a reference: it is neither spawned, nor lent to, nor joined as a borrower *)
      apply Hoth; [auto|]. destruct a; cbn [second]; try discriminate; intros [= ->]; cbn [ready] in G.
      1-2: destruct (J8 s I t (proj1 (proj2 (proj2 G)))) as (H0 & _); unfold T in H0; lia.
      destruct G as (_ & _ & _ & H0 & _). lia. }
    destruct (IH s1 s' (pres s u a s1 I E) ltac:(rewrite Hsame; exact Hr) Hne' Hrun) as (F & G' & L).
    split; [|split; [congruence|exact L]]. constructor; [|exact F]. cbn [snd]. split; intros ->.
    + pose proof (write_excludes_others s u s1 I E t ltac:(auto)). lia.
    + pose proof (free_excludes_holders s u s1 I E t). lia.
Qed.

(* in every reachable state, while some thread reads through a handle lent by p: the buffer is live, p still holds its
   reference, and no thread is exclusive (so nobody can write or reallocate) or must free *)
Theorem borrowed_buffer_protected n sched s c p :
  run (init n) sched = Ok s -> lend (getth s c) = S p ->
  Mach.live s = true /\ refs (getth s p) > 0
  /\ forall q, excl (getth s q) = false /\ mustfree (getth s q) = false.
Proof.
  intros Hrun El. pose proof (run_inv sched _ _ (inv_init n) Hrun) as I.
  split; [exact (borrower_live s c p I El)|]. split; [apply (J10 s I c p El)|].
  intros q. split.
  - destruct (excl (getth s q)) eqn:He; [destruct (borrower_no_excl s c p q I El He)|reflexivity].
  - destruct (mustfree (getth s q)) eqn:Hm; [destruct (borrower_no_mustfree s c p q I El Hm)|reflexivity].
Qed.

(* While &h is lent the lender may go on using every OTHER handle it holds on the same buffer: clone, drop (it keeps the
   lent one: a release needs two references — which suffice for any thread, lending or not), and the uniqueness probe
   behind every &mut method — which can never observe 1, whichever message it reads (J11), so the lender never writes in
   place under a borrower. *)
Theorem lender_release_enabled s t : Inv s -> t < length (ths s) -> started (getth s t) = true ->
  2 <= refs (getth s t) -> exists s', step s t ARelease = Ok s'.
Proof.
  intros I Ht Hst H2. eexists. apply (enabled s t ARelease I Ht Hst); [|reflexivity].
  split; [lia|]. split; [|right; lia]. apply (holder_no_mustfree s t t I). left. unfold T. lia.
Qed.
Theorem lender_probe_not_exclusive s t p s' : Inv s -> lends_from s t = true -> step s t (AProbe p) = Ok s' ->
  excl (getth s' t) = false /\ refs (getth s' t) = refs (getth s t) /\ 2 <= refs (getth s t).
Proof.
  intros I Hl H. apply lends_from_spec in Hl as (c & Hc).
  destruct (step_spec s t (AProbe p) s' H) as (_ & _ & _ & _ & _ & _ & _ & m & Hm & Hrefs & Hex & _).
  pose proof (probe_value_ge_refs s t p m s' I H Hm) as Hv. pose proof (keeps_lent (proj2 (step_ready H)) Hc) as H2.
  split; [|split; [exact Hrefs|lia]]. rewrite Hex. apply orb_false_intro; [apply (J10 s I c t Hc)|apply Nat.eqb_neq; lia].
Qed.
(* the whole life of a loan with a busy lender: two handles, one lent; the lender probes (reads 2), drops its other
   handle, the borrower clones through the loan, reads, drops the clone; the scope ends; the lender is alone again,
   observes it and writes *)
Example lender_edits_other_handle :
  is_ok (run (init 1) [ (0, AClone); (0, ALend 1); (1, AReadB); (0, AProbe 0); (0, ARelease); (1, ACloneB); (1, ARead);
                        (0, ARead); (1, ARelease); (0, AJoinB 1); (0, AProbe 0); (0, AWrite) ]) = true
  /\ run (init 1) [ (0, ALend 1); (0, ARelease) ] = Stuck      (* the lent handle itself cannot be dropped *)
  /\ run (init 1) [ (0, ALend 1); (0, AProbe 0) ] = Stuck.     (* nor probed: no &mut on a lent handle *)
Proof. vm_compute. auto. Qed.
(* ... and may move its other handles into new threads (the lent one stays): thread 0 holds two, lends one to thread 1,
   moves the other into thread 2, which edits nothing it is not entitled to and drops it; giving away the lent handle
   itself is not a step *)
Example lender_spawns_other_handle :
  is_ok (run (init 2) [ (0, AClone); (0, ALend 1); (0, ASpawn 2 1); (1, AReadB); (2, ARead); (2, AProbe 0); (2, ARelease);
                        (1, ACloneB); (1, ARelease); (0, AJoinB 1); (0, AJoin 2); (0, AProbe 0); (0, AWrite); (0, ARelease);
                        (0, AFence); (0, AFree) ]) = true
  /\ run (init 2) [ (0, ALend 1); (0, ASpawn 2 1) ] = Stuck.
Proof. vm_compute. auto. Qed.
