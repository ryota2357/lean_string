From Coq Require Import List Arith Lia Bool.
Import ListNotations.
From LSConc Require Import Clock Mach StepSpec.

Lemma total_cons x l : total (x :: l) = refs x + total l. Proof. reflexivity. Qed.
Lemma total_upd l n x : n < length l -> total (upd l n x) + refs (nth n l dth) = total l + refs x.
Proof.
  revert n; induction l as [|y l IH]; intros n Hn; [cbn in Hn; lia|].
  destruct n; cbn [upd nth]; rewrite !total_cons; [lia|].
  cbn in Hn. specialize (IH n ltac:(lia)). lia.
Qed.
Lemma total_ge l n : refs (nth n l dth) <= total l.
Proof. revert n; induction l as [|y l IH]; intros [|n]; cbn [nth]; rewrite ?total_cons; cbn; try lia. specialize (IH n). lia. Qed.
Lemma total_ge2 l n m : n <> m -> refs (nth n l dth) + refs (nth m l dth) <= total l.
Proof.
  revert n m; induction l as [|y l IH]; intros [|n] [|m] H; cbn [nth]; rewrite ?total_cons; cbn; try lia.
  - pose proof (total_ge l m). lia.
  - pose proof (total_ge l n). lia.
  - specialize (IH n m ltac:(lia)). lia.
Qed.
Lemma total_zero l : (forall t, refs (nth t l dth) = 0) -> total l = 0.
Proof.
  induction l as [|x l IH]; intros H; [reflexivity|]. rewrite total_cons, (H 0 : refs x = 0). apply IH. intros t. exact (H (S t)).
Qed.
Lemma nth_dth_beyond (l : list th) n : length l <= n -> nth n l dth = dth.
Proof. intros; apply nth_overflow; auto. Qed.

Lemma hbb_spec m c : hbb m c = true <-> hb m c.
Proof. unfold hbb, hb. apply Nat.leb_le. Qed.
Lemma hb_mono {m c d} : cle c d -> hb m c -> hb m d.
Proof. unfold hb; intros H1 H2; specialize (H1 (wt m)); lia. Qed.

Definition unseen_by (l : list msg) (c : clock) : Prop := forall m', In m' l -> ~ hb m' c.
Lemma unseen_by_mono {l c d} : cle c d -> unseen_by l d -> unseen_by l c.
Proof. intros Hc H m' Hin Hhb. exact (H m' Hin (hb_mono Hc Hhb)). Qed.
Lemma forallb_unseen_by {l c} : forallb (fun m' => negb (hbb m' c)) l = true -> unseen_by l c.
Proof.
  intros H m' Hin Hhb. rewrite forallb_forall in H. specialize (H m' Hin).
  apply hbb_spec in Hhb. rewrite Hhb in H. discriminate.
Qed.

Definition T (s : st) (t : nat) := getth s t.

(* the messages newer than position q that neither thread u nor any thread reading through a handle lent by u has seen *)
Definition unseen (s : st) (u q : nat) : Prop :=
  forall m', In m' (firstn q (msgs s)) ->
    ~ hb m' (clk (T s u)) /\ forall c, lend (T s c) = S u -> ~ hb m' (clk (T s c)).

Record Inv (s : st) : Prop := {
  J1 : live s = true -> msgs s <> [] /\ val (hdm s) = total (ths s);
  J2 : forall t, refs (T s t) > 0 -> cle (Wc s) (clk (T s t));
  J3 : live s = true ->
       forall u, get (Rc s) u <= get (view (hdm s)) u \/
                 (exists h, refs (T s h) > 0 /\ get (Rc s) u <= get (clk (T s h)) u) \/
                 (exists h, mustfree (T s h) = true /\ get (Rc s) u <= get (clk (T s h)) u) \/
                 (exists h, lend (T s h) <> 0 /\ get (Rc s) u <= get (clk (T s h)) u);
  J4 : forall t, mustfree (T s t) = true ->
         live s = true /\ total (ths s) = 0 /\
         cle (Wc s) (join (clk (T s t)) (pend (T s t))) /\ cle (Rc s) (join (clk (T s t)) (pend (T s t))) /\
         forall u, mustfree (T s u) = true -> u = t;
  J5 : forall t, excl (T s t) = true ->
         live s = true /\ refs (T s t) = 1 /\ total (ths s) = 1 /\
         cle (Wc s) (clk (T s t)) /\ cle (Rc s) (clk (T s t));
  J6 : live s = false -> total (ths s) = 0 /\ forall t, mustfree (T s t) = false /\ excl (T s t) = false;
  J7 : forall t p m, refs (T s t) > 0 -> p > 0 -> nth_error (msgs s) p = Some m ->
         unseen s t p ->
         refs (T s t) + 1 <= val m;
  J8 : forall t, started (T s t) = false -> refs (T s t) = 0 /\ mustfree (T s t) = false /\ excl (T s t) = false;
  J9 : live s = true -> total (ths s) = 0 -> exists t, mustfree (T s t) = true;
  (* a borrower reads through a handle its lender keeps: the lender holds a reference, is not itself a borrower, has
     not observed uniqueness, and every write to the buffer happens-before the borrower *)
  J10 : forall c p, lend (T s c) = S p ->
          started (T s c) = true /\ p <> c /\ refs (T s p) > 0 /\ lend (T s p) = 0 /\ excl (T s p) = false
          /\ cle (Wc s) (clk (T s c));
  (* a message a thread may still read (nothing newer has reached it) counts at least that thread's own references *)
  J11 : forall t p m, refs (T s t) > 0 -> nth_error (msgs s) p = Some m ->
          (forall m', In m' (firstn p (msgs s)) -> ~ hb m' (clk (T s t))) -> refs (T s t) <= val m
}.

Lemma unseen_no_borrower s u q : unseen_by (firstn q (msgs s)) (clk (T s u)) -> (forall c, lend (T s c) <> S u) -> unseen s u q.
Proof. intros F Hnb m' Hin. split; [exact (F m' Hin)|]. intros c Hc. destruct (Hnb c Hc). Qed.

Lemma T_dth s t : length (ths s) <= t -> T s t = dth.
Proof. intros; unfold T, getth; apply nth_overflow; auto. Qed.

Lemma T_with_th s t x u : t < length (ths s) -> T (with_th s t x) u = if Nat.eqb u t then x else T s u.
Proof.
  intros Ht. unfold T, getth, with_th. cbn [ths].
  destruct (Nat.eqb_spec u t) as [->|Hne]; [apply nth_upd_eq; exact Ht|apply nth_upd_ne; exact Hne].
Qed.
Lemma total_with_th s t x : t < length (ths s) -> total (ths (with_th s t x)) + refs (T s t) = total (ths s) + refs x.
Proof. exact (total_upd (ths s) t x). Qed.
Lemma refs_le_total s t : refs (T s t) <= total (ths s).
Proof. apply total_ge. Qed.
Lemma refs2_le_total s t u : t <> u -> refs (T s t) + refs (T s u) <= total (ths s).
Proof. apply total_ge2. Qed.

Lemma nth_error_hdm s m : nth_error (msgs s) 0 = Some m -> hdm s = m.
Proof. unfold hdm. destruct (msgs s); [discriminate|]. intros [= ->]. reflexivity. Qed.

(* clocks only grow, nobody starts to borrow from u, and a thread that stops is covered by u itself: what is unseen
   afterwards (among at least the same messages) was unseen before *)
Lemma unseen_mono s s' u q q' :
  (forall m', In m' (firstn q (msgs s)) -> In m' (firstn q' (msgs s'))) ->
  cle (clk (T s u)) (clk (T s' u)) ->
  (forall c, lend (T s c) = S u ->
     cle (clk (T s c)) (clk (T s' u)) \/ lend (T s' c) = S u /\ cle (clk (T s c)) (clk (T s' c))) ->
  unseen s' u q' -> unseen s u q.
Proof.
  intros Hm Hu Hb H m' Hin. destruct (H m' (Hm m' Hin)) as (H1 & H2). split.
  - intros Hhb. exact (H1 (hb_mono Hu Hhb)).
  - intros c Hc Hhb. destruct (Hb c Hc) as [Hcu|(Hl & Hcc)].
    + exact (H1 (hb_mono Hcu Hhb)).
    + exact (H2 c Hl (hb_mono Hcc Hhb)).
Qed.

(* thread t holds a reference, reads through a borrowed handle, or must free the buffer *)
Definition reaches (s : st) (t : nat) : Prop := refs (T s t) > 0 \/ lend (T s t) <> 0 \/ mustfree (T s t) = true.

Definition covered (s : st) (u : nat) : Prop :=
  get (Rc s) u <= get (view (hdm s)) u \/ exists h, reaches s h /\ get (Rc s) u <= get (clk (T s h)) u.
Lemma J3_covered s : Inv s -> live s = true -> forall u, covered s u.
Proof.
  intros I Hl u. destruct (J3 s I Hl u) as [H|[(h & Hh & H)|[(h & Hh & H)|(h & Hh & H)]]];
    [left; exact H|right; exists h; unfold reaches; auto..].
Qed.
Lemma covered_J3 s u : covered s u ->
  get (Rc s) u <= get (view (hdm s)) u \/
  (exists h, refs (T s h) > 0 /\ get (Rc s) u <= get (clk (T s h)) u) \/
  (exists h, mustfree (T s h) = true /\ get (Rc s) u <= get (clk (T s h)) u) \/
  (exists h, lend (T s h) <> 0 /\ get (Rc s) u <= get (clk (T s h)) u).
Proof. intros [H|(h & [Hh|[Hh|Hh]] & H)]; eauto 7. Qed.

Lemma refs_live s t : Inv s -> refs (T s t) > 0 -> live s = true.
Proof.
  intros I Hr. destruct (live s) eqn:Hl; [reflexivity|]. destruct (J6 s I Hl) as (H0 & _).
  pose proof (refs_le_total s t). lia.
Qed.
Lemma mustfree_no_refs s h t : Inv s -> mustfree (T s h) = true -> refs (T s t) > 0 -> False.
Proof. intros I Hm Hr. destruct (J4 s I h Hm) as (_ & H0 & _). pose proof (refs_le_total s t). lia. Qed.
Lemma excl_refs s u t : Inv s -> excl (T s u) = true -> refs (T s t) > 0 -> t = u.
Proof.
  intros I He Hr. destruct (J5 s I u He) as (_ & H1 & Htot & _).
  destruct (Nat.eq_dec t u) as [|Hne]; [assumption|]. pose proof (refs2_le_total s t u Hne). lia.
Qed.
Lemma excl_no_mustfree s u t : Inv s -> excl (T s u) = true -> mustfree (T s t) = true -> False.
Proof. intros I He Hm. destruct (J5 s I u He) as (_ & _ & H1 & _). destruct (J4 s I t Hm) as (_ & H0 & _). lia. Qed.

Lemma borrower_live s c p : Inv s -> lend (T s c) = S p -> live s = true.
Proof. intros I H. destruct (J10 s I c p H) as (_ & _ & Hr & _). exact (refs_live s p I Hr). Qed.
Lemma borrower_no_excl s c p q : Inv s -> lend (T s c) = S p -> excl (T s q) = true -> False.
Proof.
  intros I H He. destruct (J10 s I c p H) as (_ & _ & Hr & _ & Hpe & _). rewrite (excl_refs s q p I He Hr) in Hpe. congruence.
Qed.
Lemma borrower_no_mustfree s c p q : Inv s -> lend (T s c) = S p -> mustfree (T s q) = true -> False.
Proof. intros I H Hm. destruct (J10 s I c p H) as (_ & _ & Hr & _). exact (mustfree_no_refs s q p I Hm Hr). Qed.

Lemma holder_no_mustfree s t u : Inv s -> refs (T s t) > 0 \/ lend (T s t) <> 0 -> mustfree (T s u) = false.
Proof.
  intros I Hh. destruct (mustfree (T s u)) eqn:Hm; [exfalso|reflexivity].
  destruct Hh as [Hr|Hb]; [exact (mustfree_no_refs s u t I Hm Hr)|].
  destruct (lend (T s t)) as [|p] eqn:El; [contradiction|exact (borrower_no_mustfree s t p u I El Hm)].
Qed.

Lemma reaches_live s t : Inv s -> reaches s t -> live s = true.
Proof.
  intros I [Hr|[Hb|Hm]]; [exact (refs_live s t I Hr)| |apply (J4 s I t Hm)].
  destruct (lend (T s t)) as [|p] eqn:El; [contradiction|exact (borrower_live s t p I El)].
Qed.
Lemma excl_sole s u t : Inv s -> excl (T s u) = true -> reaches s t -> t = u.
Proof.
  intros I He [Hr|[Hb|Hm]]; [exact (excl_refs s u t I He Hr)|exfalso..].
  - destruct (lend (T s t)) as [|p] eqn:El; [contradiction|exact (borrower_no_excl s t p u I El He)].
  - exact (excl_no_mustfree s u t I He Hm).
Qed.
Lemma mustfree_sole s u t : Inv s -> mustfree (T s u) = true -> reaches s t -> t = u.
Proof.
  intros I Hu [Hr|[Hb|Hm]].
  - exfalso. exact (mustfree_no_refs s u t I Hu Hr).
  - exfalso. destruct (lend (T s t)) as [|p] eqn:El; [contradiction|exact (borrower_no_mustfree s t p u I El Hu)].
  - destruct (J4 s I u Hu) as (_ & _ & _ & _ & H). exact (H t Hm).
Qed.
Lemma sole_holder s t : Inv s -> reaches s t -> (forall w, w <> t -> refs (T s w) = 0) ->
  (forall c, lend (T s c) <> S t) -> forall h, reaches s h -> h = t.
Proof.
  intros I Ht Hz Hnb h Hh. destruct (Nat.eq_dec h t) as [|Hne]; [assumption|exfalso]. destruct Hh as [Hr|[Hb|Hm]].
  - rewrite (Hz h Hne) in Hr. lia.
  - destruct (lend (T s h)) as [|p] eqn:Ep; [contradiction|]. destruct (J10 s I h p Ep) as (_ & _ & Hr & _).
    destruct (Nat.eq_dec p t) as [->|Hpt]; [exact (Hnb h Ep)|rewrite (Hz p Hpt) in Hr; lia].
  - exact (Hne (eq_sym (mustfree_sole s h t I Hm Ht))).
Qed.
Lemma holder_Wc s t : Inv s -> refs (T s t) > 0 \/ lend (T s t) <> 0 -> cle (Wc s) (clk (T s t)).
Proof.
  intros I [Hr|Hb]; [exact (J2 s I t Hr)|].
  destruct (lend (T s t)) as [|p] eqn:El; [contradiction|apply (J10 s I t p El)].
Qed.

Lemma check_none s t a : Inv s -> ready s t a -> check s t a = None.
Proof.
  intros I G.
  assert (L : reaches s t -> live s = true) by apply (reaches_live s t I).
  assert (B : forall c d, cle c d -> cleb c d = true) by (intros c d; apply cleb_spec).
  destruct a; cbn [ready] in G; cbn [check]; try reflexivity; fold (T s t) in *.
  - rewrite L, (B _ _ (J2 s I t G)) by (left; exact G). reflexivity.
  - destruct (J5 s I t (proj1 G)) as (-> & _ & _ & HW & HR). rewrite (B _ _ HW), (B _ _ HR). reflexivity.
  - rewrite L by (left; exact G). reflexivity.
  - rewrite L by (left; apply G). reflexivity.
  - destruct (J4 s I t (proj1 G)) as (-> & _ & HW & HR & _).
    rewrite (B _ _ (cle_trans HW (cle_tick t))), (B _ _ (cle_trans HR (cle_tick t))). reflexivity.
  - rewrite L by (left; apply G). reflexivity.
  - (* the freeing thread reads after its fence *)
    destruct G as (Hm & Hf). destruct (J4 s I t Hm) as (-> & _ & HW & _).
    rewrite (B _ _ (cle_trans HW (cle_join_lub cle_refl Hf))). reflexivity.
  - rewrite L, (B _ _ (holder_Wc s t I (or_intror G))) by (right; left; exact G). reflexivity.
  - rewrite L by (right; left; exact G). reflexivity.
Qed.

Theorem safe s t a : Inv s -> forall e, step s t a <> Err e.
Proof. intros I e H. apply step_err in H as (G & C). rewrite (check_none s t a I G) in C. discriminate. Qed.

Lemma enabled s t a : Inv s -> t < length (ths s) -> started (getth s t) = true -> ready s t a -> fresh s t a = true ->
  step s t a = Ok (effect s t a).
Proof. intros I Ht Hs G F. apply step_ok. auto 7 using check_none. Qed.
(* a holder can always probe the newest message: a held buffer is live, and a live buffer has a message *)
Lemma fresh_newest s t : Inv s -> refs (T s t) > 0 -> fresh s t (AProbe 0) = true.
Proof.
  intros I Hr. destruct (J1 s I (refs_live s t I Hr)) as (Hne & _). cbn [fresh]. destruct (msgs s); [contradiction|reflexivity].
Qed.
