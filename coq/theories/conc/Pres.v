(* Pres.v — the invariant is kept.  First the elementary changes of state: clocks grow; a read or a write is recorded;
   the buffer is freed; a count message is published; a thread is started with handles or a loan.  Then the actions of
   the machine, each a growth of the acting thread's clock with at most one such change, and [pres]. *)
From Coq Require Import List Arith Lia Bool.
Import ListNotations.
From LSConc Require Import Clock Mach StepSpec Inv.

Lemma hb_own_tick c t m : wt m = t -> we m = get (tick c t) t -> hb m (tick c t).
Proof. unfold hb. intros -> ->. lia. Qed.

Lemma T_with_th2 s t c xp xc u : t < length (ths s) -> c < length (ths s) ->
  T (with_th (with_th s t xp) c xc) u = if Nat.eqb u c then xc else if Nat.eqb u t then xp else T s u.
Proof.
  intros Ht Hc. rewrite T_with_th by (cbn [ths with_th]; rewrite upd_length; exact Hc).
  destruct (Nat.eqb u c); [reflexivity|apply T_with_th; exact Ht].
Qed.
Lemma total_with_th2 s t c xp xc : t < length (ths s) -> c < length (ths s) -> c <> t ->
  total (ths (with_th (with_th s t xp) c xc)) + refs (T s t) + refs (T s c) = total (ths s) + refs xp + refs xc.
Proof.
  intros Ht Hc Hct. pose proof (total_with_th s t xp Ht).
  pose proof (total_with_th (with_th s t xp) c xc ltac:(cbn [ths with_th]; rewrite upd_length; exact Hc)) as E.
  rewrite T_with_th in E by exact Ht. destruct (Nat.eqb_spec c t); [contradiction|]. lia.
Qed.

(* x' is a later local state of the same thread: it holds and owes the same and knows at least as much *)
Definition later (x x' : th) : Prop :=
  refs x' = refs x /\ mustfree x' = mustfree x /\ (started x = true -> started x' = true)
  /\ cle (clk x) (clk x') /\ cle (pend x) (pend x').
Lemma later_refl x : later x x.
Proof. repeat split; auto using cle_refl. Qed.

(* Every thread's local state is a later one; messages, access clocks and liveness are those of s.  A loan may have
   ended, if the lender's clock now covers the borrower's; a thread may have become exclusive, if it is entitled to. *)
Lemma Inv_mono s s' :
  Inv s -> (msgs s', Wc s', Rc s', live s') = (msgs s, Wc s, Rc s, live s) -> total (ths s') = total (ths s) ->
  (forall u, later (T s u) (T s' u)) ->
  (forall c, lend (T s' c) = lend (T s c) \/
             lend (T s' c) = 0 /\ exists p, lend (T s c) = S p /\ cle (clk (T s c)) (clk (T s' p))) ->
  (forall u, excl (T s' u) = true -> excl (T s u) = true \/
             (live s = true /\ refs (T s' u) = 1 /\ total (ths s) = 1 /\ cle (Wc s) (clk (T s' u))
              /\ cle (Rc s) (clk (T s' u))) /\ forall c, lend (T s c) <> S u) ->
  Inv s'.
Proof.
  intros I [= Gm GW GR Gl] Gt L HL HE.
  assert (Hd : hdm s' = hdm s) by (unfold hdm; rewrite Gm; reflexivity).
  assert (Lr : forall u, refs (T s' u) = refs (T s u)) by (intros u; apply L).
  assert (Lm : forall u, mustfree (T s' u) = mustfree (T s u)) by (intros u; apply L).
  assert (Lc : forall u, cle (clk (T s u)) (clk (T s' u))) by (intros u; apply L).
  constructor.
  - rewrite Gl, Hd, Gm, Gt. exact (J1 s I).
  - intros t Hr. rewrite Lr in Hr. rewrite GW. exact (cle_trans (J2 s I t Hr) (Lc t)).
  - intros Hl u. rewrite Gl in Hl. apply covered_J3. unfold covered. rewrite GR, Hd.
    destruct (J3_covered s I Hl u) as [H|(h & Hh & H)]; [left; exact H|right].
    pose proof (Lc h u) as Hc. destruct Hh as [Hr|[Hb|Hm]].
    + exists h. split; [left; rewrite Lr; exact Hr|lia].
    + destruct (HL h) as [E|(E & p & Ep & Hcp)].
      * exists h. split; [right; left; rewrite E; exact Hb|lia].
      * (* the loan has ended: the lender covers what the borrower read *)
        exists p. destruct (J10 s I h p Ep) as (_ & _ & Hr & _).
        split; [left; rewrite Lr; exact Hr|]. specialize (Hcp u). lia.
    + exists h. split; [right; right; rewrite Lm; exact Hm|lia].
  - intros t Hm. rewrite Lm in Hm. destruct (J4 s I t Hm) as (Hl & H0 & HW & HR & Hu).
    destruct (L t) as (_ & _ & _ & Hc & Hp). pose proof (cle_join_mono Hc Hp) as Hj.
    rewrite Gl, Gt, GW, GR. repeat split; try assumption; [exact (cle_trans HW Hj)|exact (cle_trans HR Hj)|].
    intros u Hmu. rewrite Lm in Hmu. exact (Hu u Hmu).
  - intros t He. rewrite Gl, Gt, GW, GR. destruct (HE t He) as [He0|(H & _)]; [|exact H].
    destruct (J5 s I t He0) as (Hl & H1 & Ht1 & HW & HR). rewrite Lr.
    repeat split; try assumption; eapply cle_trans; eauto.
  - intros Hl. rewrite Gl in Hl. rewrite Gt. destruct (J6 s I Hl) as (H0 & Hall). split; [exact H0|].
    intros t. rewrite Lm. split; [apply Hall|]. destruct (excl (T s' t)) eqn:He; [|reflexivity].
    destruct (HE t He) as [He0|((Hl' & _) & _)]; [rewrite (proj2 (Hall t)) in He0|]; congruence.
  - intros t p m Hr Hp Hn Hun. rewrite Lr in *. rewrite Gm in Hn. apply (J7 s I t p m Hr Hp Hn).
    apply (unseen_mono s s' t p p); [rewrite Gm; auto|apply Lc| |exact Hun].
    intros c Hc. destruct (HL c) as [E|(_ & q & Eq & Hcq)].
    + right. split; [congruence|apply Lc].
    + left. assert (q = t) as -> by congruence. exact Hcq.
  - intros t Hs. destruct (started (T s t)) eqn:Hs0.
    + destruct (L t) as (_ & _ & Hst & _). rewrite (Hst Hs0) in Hs. discriminate.
    + destruct (J8 s I t Hs0) as (H0 & Hm & He0). rewrite Lr, Lm. split; [exact H0|]. split; [exact Hm|].
      destruct (excl (T s' t)) eqn:He; [|reflexivity].
      destruct (HE t He) as [He1|((_ & H1 & _) & _)]; [congruence|]. rewrite Lr in H1. lia.
  - rewrite Gl, Gt. intros Hl H0. destruct (J9 s I Hl H0) as (t & Hm). exists t. rewrite Lm. exact Hm.
  - intros c p El. assert (Ec : lend (T s c) = S p) by (destruct (HL c) as [E|(E & _)]; congruence).
    destruct (J10 s I c p Ec) as (Hs & Hpc & Hr & Hlp & Hep & HW).
    split; [apply L; exact Hs|]. split; [exact Hpc|]. split; [rewrite Lr; exact Hr|].
    split; [destruct (HL p) as [E|(E & _)]; congruence|].
    split; [|rewrite GW; exact (cle_trans HW (Lc c))].
    destruct (excl (T s' p)) eqn:He; [|reflexivity].
    destruct (HE p He) as [He1|(_ & Hnb)]; [congruence|destruct (Hnb c Ec)].
  - intros t p m Hr Hn Hun. rewrite Lr in *. rewrite Gm in *. apply (J11 s I t p m Hr Hn).
    exact (unseen_by_mono (Lc t) Hun).
Qed.

(* one thread's local state becomes a later one (its clock and [pend] may grow), and [excl] may become true if the
   thread is entitled to it; nothing else changes *)
Lemma Inv_grow s t x' :
  Inv s -> t < length (ths s) -> later (T s t) x' -> lend x' = lend (T s t) ->
  (excl x' = true -> excl (T s t) = true \/
     (live s = true /\ refs x' = 1 /\ total (ths s) = 1 /\ cle (Wc s) (clk x') /\ cle (Rc s) (clk x'))
     /\ forall c, lend (T s c) <> S t) ->
  Inv (with_th s t x').
Proof.
  intros I Ht L El HE.
  assert (HT : forall u, T (with_th s t x') u = if Nat.eqb u t then x' else T s u) by (intros u; apply T_with_th; exact Ht).
  apply (Inv_mono s); [exact I|reflexivity| | | |].
  - pose proof (total_with_th s t x' Ht). destruct L as (Lr & _). lia.
  - intros u. rewrite HT. destruct (Nat.eqb_spec u t) as [->|_]; [exact L|apply later_refl].
  - intros c. left. rewrite HT. destruct (Nat.eqb_spec c t) as [->|_]; [exact El|reflexivity].
  - intros u. rewrite HT. destruct (Nat.eqb_spec u t) as [->|_]; [exact HE|auto].
Qed.
Lemma later_acting {x c p e} : cle (clk x) c -> cle (pend x) p -> later x (acting x c p (refs x) e (mustfree x)).
Proof. intros Hc Hp. repeat split; assumption. Qed.
Lemma Inv_clk s t {c} : Inv s -> t < length (ths s) -> cle (clk (T s t)) c -> Inv (with_th s t (set_clk (T s t) c)).
Proof.
  intros I Ht Hc. apply Inv_grow; [exact I|exact Ht|exact (later_acting Hc cle_refl)|reflexivity|auto].
Qed.

Lemma Inv_setRc {s} t {v} : Inv s -> reaches s t -> v <= get (clk (T s t)) t -> Inv (set_Rc s (setc (Rc s) t v)).
Proof.
  intros I Ht Hv.
  assert (C : forall d, cle (Rc s) d -> cle (clk (T s t)) d -> cle (setc (Rc s) t v) d).
  { intros d H1 H2. apply cle_setc; [exact H1|]. specialize (H2 t). lia. }
  pose proof I as [? ? _ _ _ ? ? ? ? ? ?]. constructor; try assumption.
  - intros Hl u. apply covered_J3. unfold covered. cbn [Rc set_Rc]. rewrite get_setc.
    destruct (Nat.eqb_spec u t) as [->|_]; [right; exists t; split; [exact Ht|exact Hv]|exact (J3_covered s I Hl u)].
  - intros w Hm. pose proof (mustfree_sole s w t I Hm Ht) as <-.
    destruct (J4 s I t Hm) as (Hl & H0 & HW & HR & Hu).
    repeat split; try assumption. apply C; [exact HR|apply cle_join_l].
  - intros w He. pose proof (excl_sole s w t I He Ht) as <-. destruct (J5 s I t He) as (Hl & H1 & Ht1 & HW & HR).
    repeat split; try assumption. apply C; [exact HR|apply cle_refl].
Qed.

Lemma Inv_setWc {s} t {v} : Inv s -> excl (T s t) = true -> v <= get (clk (T s t)) t -> Inv (set_Wc s (setc (Wc s) t v)).
Proof.
  intros I He Hv. destruct (J5 s I t He) as (Hl & H1 & Ht1 & HW & HR).
  assert (C : cle (setc (Wc s) t v) (clk (T s t))) by (apply cle_setc; assumption).
  pose proof I as [? _ ? _ _ ? ? ? ? _ ?]. constructor; try assumption.
  - intros u Hr. rewrite (excl_refs s t u I He Hr). exact C.
  - intros u Hm. destruct (excl_no_mustfree s t u I He Hm).
  - intros u Hu. assert (u = t) as -> by (apply (excl_refs s t u I He); destruct (J5 s I u Hu) as (_ & -> & _); lia).
    repeat split; assumption.
  - intros c p El. destruct (borrower_no_excl s c p t I El He).
Qed.

Lemma Inv_dead s : live s = false -> total (ths s) = 0 ->
  (forall u, mustfree (T s u) = false /\ excl (T s u) = false /\ lend (T s u) = 0) -> Inv s.
Proof.
  intros Hl H0 F. assert (R : forall u, refs (T s u) = 0) by (intros u; pose proof (refs_le_total s u); lia).
  constructor; try congruence.
  - intros t Hr. rewrite R in Hr. lia.
  - intros t Hm. rewrite (proj1 (F t)) in Hm. discriminate.
  - intros t He. rewrite (proj1 (proj2 (F t))) in He. discriminate.
  - intros _. split; [exact H0|]. intros t. split; apply F.
  - intros t p m Hr. rewrite R in Hr. lia.
  - intros t _. rewrite R. split; [reflexivity|]. split; apply F.
  - intros c p El. rewrite (proj2 (proj2 (F c))) in El. discriminate.
  - intros t p m Hr. rewrite R in Hr. lia.
Qed.

(* Thread t publishes m, the new head of the count's modification order, and its local state becomes x': a later
   clock, the same loan; the new value tracks the change of its reference count. *)
Lemma Inv_rmw s t x' m :
  Inv s -> t < length (ths s) -> refs (T s t) > 0 \/ lend (T s t) <> 0 ->
  cle (clk (T s t)) (clk x') -> lend x' = lend (T s t) -> started x' = true -> excl x' = false ->
  (mustfree x' = true <-> val m = 0) ->
  hb m (clk x') -> val m + refs (T s t) = val (hdm s) + refs x' ->
  cle (view (hdm s)) (view m) -> cle (view (hdm s)) (pend x') -> (refs x' = 0 -> cle (clk x') (view m)) ->
  (forall c, lend (T s c) = S t -> refs x' > 0) ->
  Inv (push (with_th s t x') m).
Proof.
  intros I Ht Hold Hc El Es Ee Em Hhb Hval Hv Hp Hstop Hkeep.
  assert (Hreach : reaches s t) by (destruct Hold; [left|right; left]; assumption).
  pose proof (reaches_live s t I Hreach) as Hl. destruct (J1 s I Hl) as (_ & Hhd).
  pose proof (cle_trans (holder_Wc s t I Hold) Hc) as HW.
  set (s' := push (with_th s t x') m).
  assert (HT : forall u, T s' u = if Nat.eqb u t then x' else T s u) by (intros u; apply T_with_th; exact Ht).
  assert (Fl : forall u, lend (T s' u) = lend (T s u)).
  { intros u. rewrite HT. destruct (Nat.eqb_spec u t) as [->|_]; auto. }
  assert (Fc : forall u, cle (clk (T s u)) (clk (T s' u))).
  { intros u. rewrite HT. destruct (Nat.eqb_spec u t) as [->|_]; [exact Hc|apply cle_refl]. }
  assert (Htot : val m = total (ths s')).
  { pose proof (total_with_th s t x' Ht) as E. cbn [s' push ths]. lia. }
  (* beside another holder u, thread t or its lender holds a reference that the old head counts *)
  assert (H7 : forall u, u <> t -> lend x' <> S u -> refs (T s u) + 1 <= val (hdm s)).
  { intros u Hu Hlu. rewrite Hhd. destruct Hold as [H|H].
    - pose proof (refs2_le_total s u t Hu). lia.
    - destruct (lend (T s t)) as [|p] eqn:Ep; [contradiction|]. destruct (J10 s I t p Ep) as (_ & _ & Hr & _).
      assert (Hup : u <> p) by congruence. pose proof (refs2_le_total s u p Hup). lia. }
  (* when the count drops to 0 nobody else can reach the buffer *)
  assert (Hsole : val m = 0 -> forall h, reaches s h -> h = t).
  { intros H0. pose proof (refs_le_total s t). apply (sole_holder s t I Hreach).
    - intros w Hw. pose proof (refs2_le_total s w t Hw). lia.
    - intros c Hc'. pose proof (Hkeep c Hc'). lia. }
  constructor.
  - intros _. split; [discriminate|exact Htot].
  - intros u. rewrite HT. destruct (Nat.eqb_spec u t) as [->|_]; [intros _; exact HW|exact (J2 s I u)].
  - intros _ u. apply covered_J3. destruct (J3_covered s I Hl u) as [H|(h & Hh & H)].
    + left. specialize (Hv u). change (get (Rc s) u <= get (view m) u). lia.
    + pose proof (Fc h u) as Hch. destruct (Nat.eq_dec h t) as [->|Hne].
      * destruct (refs x') as [|r] eqn:Er.
        -- left. specialize (Hstop eq_refl u). specialize (Hc u). change (get (Rc s) u <= get (view m) u). lia.
        -- right. exists t. split; [left; rewrite HT, Nat.eqb_refl, Er; lia|change (get (Rc s) u <= get (clk (T s' t)) u); lia].
      * right. exists h. split; [|change (get (Rc s) u <= get (clk (T s' h)) u); lia]. unfold reaches. rewrite HT.
        destruct (Nat.eqb_spec h t); [contradiction|exact Hh].
  - intros u. rewrite HT. destruct (Nat.eqb_spec u t) as [->|Hne]; intros Hm.
    + apply Em in Hm. split; [exact Hl|]. split; [rewrite <- Htot; exact Hm|]. split; [|split].
      * exact (cle_trans HW cle_join_l).
      * intros v. change (Rc s') with (Rc s). rewrite get_join. specialize (Hc v).
        destruct (J3_covered s I Hl v) as [H|(h & Hh & H)]; [specialize (Hp v); lia|].
        rewrite (Hsole Hm h Hh) in H. lia.
      * intros w. rewrite HT. destruct (Nat.eqb_spec w t); [auto|]. intros Hw.
        exact (Hsole Hm w (or_intror (or_intror Hw))).
    + destruct (Hne (eq_sym (mustfree_sole s u t I Hm Hreach))).
  - intros u. rewrite HT. destruct (Nat.eqb_spec u t) as [->|Hne]; intros He; [congruence|].
    destruct (Hne (eq_sym (excl_sole s u t I He Hreach))).
  - intros Hd. change (live s = false) in Hd. congruence.
  - intros u q m0 Hr Hq Hn Hun. destruct q as [|q]; [lia|]. change (nth_error (msgs s) q = Some m0) in Hn.
    destruct (Hun m (or_introl eq_refl)) as (A & B). rewrite HT in A, Hr |- *.
    destruct (Nat.eqb_spec u t) as [->|Hne]; [destruct (A Hhb)|].
    assert (Hlu : lend x' <> S u) by (intros E; apply (B t); rewrite HT, Nat.eqb_refl; assumption).
    destruct q as [|q].
    + rewrite <- (nth_error_hdm s m0 Hn). apply H7; assumption.
    + apply (J7 s I u (S q) m0 Hr ltac:(lia) Hn).
      apply (unseen_mono s s' u (S q) (S (S q))); [intros m' Hin; right; exact Hin|apply Fc| |exact Hun].
      intros c Hc'. right. rewrite Fl. split; [exact Hc'|apply Fc].
  - intros u. rewrite HT. destruct (Nat.eqb_spec u t) as [->|_]; [rewrite Es; discriminate|exact (J8 s I u)].
  - intros _ H0. exists t. rewrite HT, Nat.eqb_refl. apply Em. rewrite Htot. exact H0.
  - intros c p Elc. rewrite Fl in Elc. destruct (J10 s I c p Elc) as (Hs & Hpc & Hr & Hlp & Hep & HWc).
    rewrite Fl. split; [rewrite HT; destruct (Nat.eqb c t); assumption|]. split; [exact Hpc|].
    split; [|split; [exact Hlp|split; [|exact (cle_trans HWc (Fc c))]]]; rewrite HT; destruct (Nat.eqb_spec p t) as [->|_]; auto.
    exact (Hkeep c Elc).
  - intros u p m0 Hr Hn Hun. destruct p as [|p].
    + injection Hn as <-. rewrite Htot. apply refs_le_total.
    + rewrite HT in *. destruct (Nat.eqb_spec u t) as [->|_]; [destruct (Hun m (or_introl eq_refl) Hhb)|].
      apply (J11 s I u p m0 Hr Hn). intros m' Hin. apply Hun. right. exact Hin.
Qed.

(* Thread t hands k of its handles to the fresh thread c, or (L = S t, k = 0) lends it one.  Both clocks are later than
   t's: what c has not seen, t had not seen. *)
Lemma Inv_start s t c k L {cp cc} :
  Inv s -> t < length (ths s) -> ready s t (ASpawn c k) ->
  (L = 0 \/ L = S t /\ k = 0 /\ refs (T s t) > 0 /\ lend (T s t) = 0) ->
  cle (clk (T s t)) cp -> cle (clk (T s t)) cc ->
  Inv (with_th (with_th s t (acting (T s t) cp (pend (T s t)) (refs (T s t) - k) false (mustfree (T s t))))
               c (fresh_th cc k L)).
Proof.
  intros I Ht (Hct & Hc & Hsc & Hk & Hkeep) HL Hcp Hcc. fold (T s t) (T s c) in *.
  destruct (J8 s I c Hsc) as (Hc0 & Hcm & Hce).
  assert (Hcl : lend (T s c) = 0).
  { destruct (lend (T s c)) as [|q] eqn:E; [reflexivity|]. destruct (J10 s I c q E) as (Hx & _). congruence. }
  match goal with |- Inv (with_th (with_th s t ?a) c ?b) => set (xp := a); set (xc := b) end.
  set (s' := with_th (with_th s t xp) c xc).
  assert (HT : forall u, T s' u = if Nat.eqb u c then xc else if Nat.eqb u t then xp else T s u)
    by (intros u; apply T_with_th2; assumption).
  assert (Htot : total (ths s') = total (ths s)).
  { pose proof (total_with_th2 s t c xp xc Ht Hc Hct) as E.
    change (total (ths s') + refs (T s t) + refs (T s c) = total (ths s) + (refs (T s t) - k) + k) in E. lia. }
  (* the thread whose handles and knowledge u has inherited *)
  set (o := fun u => if Nat.eqb u c then t else u).
  assert (Ho : forall u, refs (T s' u) <= refs (T s (o u)) /\ cle (clk (T s (o u))) (clk (T s' u))).
  { intros u. rewrite HT. unfold o. destruct (Nat.eqb_spec u c) as [->|_]; [split; [exact Hk|exact Hcc]|].
    destruct (Nat.eqb_spec u t) as [->|_]; [split; [cbn; lia|exact Hcp]|split; [lia|apply cle_refl]]. }
  assert (Fc : forall u, u <> c -> cle (clk (T s u)) (clk (T s' u))).
  { intros u Hu. destruct (Ho u) as (_ & H). unfold o in H. destruct (Nat.eqb_spec u c); [contradiction|exact H]. }
  assert (Fm : forall u, mustfree (T s' u) = mustfree (T s u)).
  { intros u. rewrite HT. destruct (Nat.eqb_spec u c) as [->|_]; [symmetry; exact Hcm|].
    destruct (Nat.eqb_spec u t) as [->|_]; reflexivity. }
  assert (Fl : forall u, u <> c -> lend (T s' u) = lend (T s u)).
  { intros u Hu. rewrite HT. destruct (Nat.eqb_spec u c); [contradiction|].
    destruct (Nat.eqb_spec u t) as [->|_]; reflexivity. }
  assert (Fj : forall u, u <> c ->
             cle (join (clk (T s u)) (pend (T s u))) (join (clk (T s' u)) (pend (T s' u)))).
  { intros u Hu. rewrite HT. destruct (Nat.eqb_spec u c); [contradiction|].
    destruct (Nat.eqb_spec u t) as [->|_]; [exact (cle_join_mono Hcp cle_refl)|apply cle_refl]. }
  assert (Fe : forall u, excl (T s' u) = true -> excl (T s u) = true /\ T s' u = T s u).
  { intros u. rewrite HT. destruct (Nat.eqb_spec u c); [discriminate|]. destruct (Nat.eqb_spec u t); [discriminate|auto]. }
  constructor.
  - intros Hl. rewrite Htot. exact (J1 s I Hl).
  - intros u Hr. destruct (Ho u) as (Hle & Hcl'). exact (cle_trans (J2 s I (o u) ltac:(lia)) Hcl').
  - intros Hl u. apply covered_J3. destruct (J3_covered s I Hl u) as [H|(h & Hh & H)]; [left; exact H|right].
    assert (Hhc : h <> c) by (intros ->; destruct Hh as [Hr|[Hb|Hm]]; [lia|congruence|congruence]).
    destruct (Nat.eq_dec h t) as [->|Hht].
    + (* the parent covered the read: it still does, or the child that took all its handles does *)
      destruct k as [|k'].
      * exists t. unfold reaches. rewrite HT. destruct (Nat.eqb_spec t c); [congruence|]. rewrite Nat.eqb_refl.
        split; [unfold xp; cbn; rewrite Nat.sub_0_r; exact Hh|]. specialize (Hcp u). change (get (Rc s) u <= get cp u). lia.
      * exists c. unfold reaches. rewrite HT, Nat.eqb_refl. split; [left; unfold xc; cbn; lia|].
        specialize (Hcc u). change (get (Rc s) u <= get cc u). lia.
    + exists h. unfold reaches. rewrite HT. destruct (Nat.eqb_spec h c); [contradiction|].
      destruct (Nat.eqb_spec h t); [contradiction|]. split; [exact Hh|exact H].
  - intros u Hm. rewrite Fm in Hm. destruct (J4 s I u Hm) as (Hl & H0 & HW & HR & Hu).
    assert (Huc : u <> c) by (intros ->; congruence).
    split; [exact Hl|]. split; [rewrite Htot; exact H0|].
    split; [exact (cle_trans HW (Fj u Huc))|]. split; [exact (cle_trans HR (Fj u Huc))|].
    intros w Hw. rewrite Fm in Hw. exact (Hu w Hw).
  - intros u He. destruct (Fe u He) as (He0 & ->). rewrite Htot. exact (J5 s I u He0).
  - intros Hl. destruct (J6 s I Hl) as (H0 & Hall). split; [rewrite Htot; exact H0|]. intros u. rewrite Fm.
    split; [apply Hall|]. destruct (excl (T s' u)) eqn:He; [|reflexivity].
    destruct (Fe u He) as (He0 & _). rewrite (proj2 (Hall u)) in He0. discriminate.
  - intros u q m Hr Hq Hn Hun. destruct (Ho u) as (Hle & Hcl'). destruct (Nat.eq_dec u c) as [->|Huc].
    + (* the child: what it may still read, the parent might; and a parent that lends keeps a handle *)
      unfold o in *. rewrite Nat.eqb_refl in *.
      assert (Hunt : unseen_by (firstn q (msgs s)) (clk (T s t))).
      { intros m' Hin Hhb. exact (proj1 (Hun m' Hin) (hb_mono Hcl' Hhb)). }
      rewrite HT, Nat.eqb_refl in *. cbn [refs xc fresh_th] in *. destruct Hkeep as [Hlf|Hkeep].
      * pose proof (J7 s I t q m ltac:(lia) Hq Hn (unseen_no_borrower s t q Hunt (proj1 (lends_from_false s t) Hlf))). lia.
      * pose proof (J11 s I t q m ltac:(lia) Hn Hunt). lia.
    + unfold o in Hle. destruct (Nat.eqb_spec u c); [contradiction|].
      assert (refs (T s u) + 1 <= val m); [|lia]. apply (J7 s I u q m ltac:(lia) Hq Hn).
      apply (unseen_mono s s' u q q); [auto|exact (Fc u Huc)| |exact Hun].
      intros b Hb. assert (Hbc : b <> c) by (intros ->; congruence).
      right. split; [rewrite Fl; assumption|exact (Fc b Hbc)].
  - intros u. rewrite HT. destruct (Nat.eqb_spec u c); [discriminate|].
    destruct (Nat.eqb_spec u t); [discriminate|exact (J8 s I u)].
  - intros Hl H0. rewrite Htot in H0. destruct (J9 s I Hl H0) as (u & Hm). exists u. rewrite Fm. exact Hm.
  - intros b p Eb. destruct (Nat.eq_dec b c) as [->|Hbc].
    + rewrite HT, Nat.eqb_refl in *. cbn [lend xc fresh_th] in Eb.
      destruct HL as [->|(-> & -> & Hr & Hl0)]; [discriminate|]. injection Eb as <-.
      rewrite HT. destruct (Nat.eqb_spec t c); [congruence|]. rewrite Nat.eqb_refl. cbn.
      split; [reflexivity|]. split; [auto|]. split; [lia|]. split; [exact Hl0|]. split; [reflexivity|].
      exact (cle_trans (J2 s I t Hr) Hcc).
    + rewrite (Fl b Hbc) in Eb. destruct (J10 s I b p Eb) as (Hs & Hpb & Hr & Hlp & Hep & HW).
      assert (Hpc : p <> c) by (intros ->; lia). rewrite (Fl p Hpc).
      split; [|split; [exact Hpb|split; [|split; [exact Hlp|split; [|exact (cle_trans HW (Fc b Hbc))]]]]].
      * rewrite HT. destruct (Nat.eqb_spec b c); [contradiction|]. destruct (Nat.eqb b t); [reflexivity|exact Hs].
      * rewrite HT. destruct (Nat.eqb_spec p c); [contradiction|].
        destruct (Nat.eqb_spec p t) as [->|_]; [exact (keeps_lent Hkeep Eb)|exact Hr].
      * destruct (excl (T s' p)) eqn:He; [|reflexivity]. destruct (Fe p He) as (He0 & _). congruence.
  - intros u p m Hr Hn Hun. destruct (Ho u) as (Hle & Hcl').
    pose proof (J11 s I (o u) p m ltac:(lia) Hn (unseen_by_mono Hcl' Hun)). lia.
Qed.

Lemma pres_read s t : Inv s -> t < length (ths s) -> reaches s t -> Inv (effect s t ARead).
Proof.
  intros I Ht Hr. cbn [effect acted other].
  apply (Inv_setRc t (Inv_clk s t I Ht (cle_tick t))); [unfold reaches|]; rewrite T_with_th, Nat.eqb_refl by exact Ht;
    [exact Hr|apply le_n].
Qed.

Lemma pres_write s t : Inv s -> t < length (ths s) -> excl (T s t) = true -> Inv (effect s t AWrite).
Proof.
  intros I Ht He. cbn [effect acted other].
  apply (Inv_setWc t (Inv_clk s t I Ht (cle_tick t))); rewrite T_with_th, Nat.eqb_refl by exact Ht; [exact He|apply le_n].
Qed.

Lemma pres_clone s t : Inv s -> t < length (ths s) -> refs (T s t) > 0 \/ lend (T s t) <> 0 -> Inv (effect s t AClone).
Proof.
  intros I Ht Hh. cbn [effect acted other]. fold (T s t).
  apply Inv_rmw; try reflexivity; [exact I|exact Ht|exact Hh|apply cle_tick| | | | | | |].
  - cbn [mustfree val acting]. rewrite (holder_no_mustfree s t t I Hh). split; discriminate.
  - apply hb_own_tick; reflexivity.
  - change (S (val (hdm s)) + refs (T s t) = val (hdm s) + S (refs (T s t))). lia.
  - apply cle_refl.
  - apply cle_join_r.
  - discriminate.
  - intros c _. apply Nat.lt_0_succ.
Qed.

Lemma pres_release s t : Inv s -> t < length (ths s) -> ready s t ARelease -> Inv (effect s t ARelease).
Proof.
  intros I Ht (Hr & Hmf & Hkeep). cbn [effect acted other]. fold (T s t) in *.
  destruct (J1 s I (refs_live s t I Hr)) as (_ & Hv). pose proof (refs_le_total s t) as Hle.
  apply Inv_rmw; try reflexivity; [exact I|exact Ht|left; exact Hr|apply cle_tick| | | | | | |].
  - cbn [mustfree val acting]. rewrite Nat.eqb_eq. lia.
  - apply hb_own_tick; reflexivity.
  - change (val (hdm s) - 1 + refs (T s t) = val (hdm s) + (refs (T s t) - 1)). lia.
  - apply cle_join_l.
  - apply cle_join_r.
  - intros _. apply cle_join_r.
  - exact (fun c => keeps_lent Hkeep).
Qed.

Lemma pres_free s t : Inv s -> t < length (ths s) -> mustfree (T s t) = true -> Inv (effect s t AFree).
Proof.
  intros I Ht Hm. cbn [effect acted other]. destruct (J4 s I t Hm) as (_ & H0 & _ & _ & Hu).
  match goal with |- Inv (kill (with_th s t ?y)) => set (x' := y) end.
  assert (HT : forall u, T (kill (with_th s t x')) u = if Nat.eqb u t then x' else T s u)
    by (intros u; exact (T_with_th s t x' u Ht)).
  apply Inv_dead; [reflexivity| |].
  - pose proof (total_with_th s t x' Ht) as E. change (total (ths (kill (with_th s t x'))) + refs (T s t) = total (ths s) + refs (T s t)) in E. lia.
  - intros u.
    assert (Hl : lend (T s u) = 0).
    { destruct (lend (T s u)) as [|p] eqn:El; [reflexivity|destruct (borrower_no_mustfree s u p t I El Hm)]. }
    rewrite HT. destruct (Nat.eqb_spec u t) as [->|Hne]; [auto|]. split; [|split; [|exact Hl]].
    + destruct (mustfree (T s u)) eqn:Hmu; [destruct (Hne (Hu u Hmu))|reflexivity].
    + destruct (excl (T s u)) eqn:He; [destruct (excl_no_mustfree s u t I He Hm)|reflexivity].
Qed.

(* reading the value 1 means reading the newest message, as the only holder, with no borrower *)
Lemma pres_probe s t p : Inv s -> t < length (ths s) -> ready s t (AProbe p) -> fresh s t (AProbe p) = true ->
  Inv (effect s t (AProbe p)).
Proof.
  intros I Ht (Hr & Hkeep) F. cbn [fresh] in F. destruct (nth_error (msgs s) p) as [m|] eqn:Hn; [|discriminate].
  apply forallb_unseen_by in F. cbn [effect acted other]. rewrite Hn. fold (T s t) in *.
  apply Inv_grow; [exact I|exact Ht|exact (later_acting (cle_tick_join t) cle_refl)|reflexivity|].
  cbn [excl refs clk acting]. intros He. destruct (excl (T s t)); [left; reflexivity|right]. apply Nat.eqb_eq in He.
  pose proof (J11 s I t p m Hr Hn F) as H11.
  assert (Hnb : forall c, lend (T s c) <> S t).
  { intros c Hc. pose proof (keeps_lent Hkeep Hc). lia. }
  assert (p = 0) as ->.
  { destruct p as [|p]; [reflexivity|]. assert (refs (T s t) + 1 <= val m); [|lia].
    exact (J7 s I t (S p) m Hr ltac:(lia) Hn (unseen_no_borrower s t (S p) F Hnb)). }
  pose proof (refs_live s t I Hr) as Hl. destruct (J1 s I Hl) as (_ & Hv). rewrite (nth_error_hdm s m Hn) in Hv.
  split; [|exact Hnb]. split; [exact Hl|]. split; [lia|]. split; [lia|].
  split; [exact (cle_trans (J2 s I t Hr) (cle_tick_join t))|].
  intros v. pose proof (@cle_tick (join (clk (T s t)) (view m)) t v) as Hv'. rewrite get_join in Hv'.
  destruct (J3_covered s I Hl v) as [H|(h & Hh & H)]; [rewrite (nth_error_hdm s m Hn) in H; lia|].
  assert (Hz : forall w, w <> t -> refs (T s w) = 0) by (intros w Hw; pose proof (refs2_le_total s w t Hw); lia).
  rewrite (sole_holder s t I (or_introl Hr) Hz Hnb h Hh) in H. lia.
Qed.

(* the scope ends: the lender's clock absorbs the borrower's, whose loan ends *)
Lemma pres_joinb s t c : Inv s -> t < length (ths s) -> ready s t (AJoinB c) -> Inv (effect s t (AJoinB c)).
Proof.
  intros I Ht (Hct & Hc & Hl & Hr0 & Hmf). cbn [effect acted other]. fold (T s t) (T s c) in *.
  match goal with |- Inv (with_th (with_th s t ?a) c ?b) => set (xp := a); set (xc := b) end.
  assert (HT : forall u, T (with_th (with_th s t xp) c xc) u = if Nat.eqb u c then xc else if Nat.eqb u t then xp else T s u)
    by (intros u; apply T_with_th2; assumption).
  apply (Inv_mono s); [exact I|reflexivity| | | |].
  - pose proof (total_with_th2 s t c xp xc Ht Hc Hct) as E.
    change (refs xp) with (refs (T s t)) in E. change (refs xc) with (refs (T s c)) in E. lia.
  - intros u. rewrite HT. destruct (Nat.eqb_spec u c) as [->|_]; [repeat split; auto using cle_refl|].
    destruct (Nat.eqb_spec u t) as [->|_]; [|apply later_refl].
    exact (later_acting (cle_tick_join t) cle_refl).
  - intros u. rewrite !HT. destruct (Nat.eqb_spec u c) as [->|_]; [right|left; destruct (Nat.eqb_spec u t) as [->|_]; reflexivity].
    split; [reflexivity|]. exists t. split; [exact Hl|]. rewrite HT. destruct (Nat.eqb_spec t c); [congruence|].
    rewrite Nat.eqb_refl. exact (cle_trans cle_join_r (cle_tick t)).
  - intros u. rewrite HT. destruct (Nat.eqb_spec u c) as [->|_]; [auto|]. destruct (Nat.eqb_spec u t) as [->|_]; auto.
Qed.

(* a loan starts like a thread that is given no handle *)
Lemma pres_lend s t c : Inv s -> t < length (ths s) -> ready s t (ALend c) -> Inv (effect s t (ALend c)).
Proof.
  intros I Ht (Hct & Hc & Hsc & Hr & Hl0).
  assert (G : ready s t (ASpawn c 0)).
  { split; [exact Hct|]. split; [exact Hc|]. split; [exact Hsc|]. split; [apply Nat.le_0_l|right; lia]. }
  fold (T s t) in *.
  pose proof (Inv_start s t c 0 (S t) I Ht G (or_intror (conj eq_refl (conj eq_refl (conj Hr Hl0)))) (cle_tick t)
                (cle_trans (cle_tick t) (cle_tick c))) as H.
  unfold acting in H. rewrite Nat.sub_0_r, Hl0 in H. exact H.
Qed.

(* AReadM and AReadB differ from ARead, and ACloneB from AClone, in the guard only, so pres_read and pres_clone apply to
   them by conversion *)
Theorem pres s t a s' : Inv s -> step s t a = Ok s' -> Inv s'.
Proof.
  intros I H. apply step_ok in H as (Ht & _ & G & _ & F & ->). destruct a; cbn [ready] in G.
  - exact (pres_read s t I Ht (or_introl G)).
  - exact (pres_write s t I Ht (proj1 G)).
  - exact (pres_clone s t I Ht (or_introl G)).
  - exact (pres_release s t I Ht G).
  - exact (pres_free s t I Ht (proj1 G)).
  - exact (pres_probe s t p I Ht G F).
  - exact (Inv_start s t c k 0 I Ht G (or_introl eq_refl) (cle_tick t) (cle_trans (cle_tick t) (cle_tick c))).
  - exact (Inv_clk s t I Ht (cle_tick_join t)).
  - exact (Inv_clk s t I Ht cle_join_l).
  - exact (pres_read s t I Ht (or_intror (or_intror (proj1 G)))).
  - exact (pres_lend s t c I Ht G).
  - exact (pres_read s t I Ht (or_intror (or_introl G))).
  - exact (pres_joinb s t c I Ht G).
  - exact (pres_clone s t I Ht (or_intror G)).
Qed.

(* one step, as the rest of the machine sees it; [c]: the second thread it changes *)
Definition frame (t : nat) (c : option nat) (s s' : st) : Prop :=
  Inv s' /\ length (ths s') = length (ths s) /\ started (getth s' t) = true /\ lend (getth s' t) = lend (getth s t)
  /\ forall u, u <> t -> c <> Some u -> getth s' u = getth s u.
Lemma frame_refl t s : Inv s -> started (getth s t) = true -> frame t None s s.
Proof. intros I Hst. exact (conj I (conj eq_refl (conj Hst (conj eq_refl (fun _ _ _ => eq_refl))))). Qed.
Lemma frame_step {t a s s'} : Inv s -> step s t a = Ok s' -> frame t (second a) s s' /\ act_spec s t a s'.
Proof.
  intros I Hs. destruct (step_spec s t a s' Hs) as (_ & _ & Hst' & Hlen & Hoth & Hl & Hspec).
  split; [|exact Hspec]. split; [exact (pres s t a s' I Hs)|]. auto.
Qed.
Lemma frame_lend {t c s s'} u : frame t c s s' -> c <> Some u -> lend (getth s' u) = lend (getth s u).
Proof. intros (_ & _ & _ & Hl & Hoth) Hc. destruct (Nat.eq_dec u t) as [->|Hu]; [exact Hl|rewrite Hoth; auto]. Qed.
