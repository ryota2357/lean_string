From Coq Require Import List Arith Lia Bool.
Import ListNotations.

(* vector clocks as lists, default 0 *)
Definition clock := list nat.
Definition get (c : clock) (t : nat) : nat := nth t c 0.
Definition cle (c d : clock) : Prop := forall t, get c t <= get d t.

Fixpoint join (c d : clock) : clock :=
  match c, d with
  | [], _ => d
  | _, [] => c
  | x :: c', y :: d' => Nat.max x y :: join c' d'
  end.

Lemma get_nil t : get [] t = 0.
Proof. unfold get; destruct t; reflexivity. Qed.

Lemma get_join c d t : get (join c d) t = Nat.max (get c t) (get d t).
Proof.
  revert d t; induction c as [|x c IH]; intros d t.
  - cbn [join]. rewrite get_nil. lia.
  - destruct d as [|y d]; cbn [join].
    + rewrite get_nil. lia.
    + destruct t as [|t]; unfold get in *; cbn [nth]; [lia| apply IH].
Qed.

Fixpoint setc (c : clock) (t v : nat) : clock :=
  match t, c with
  | 0, [] => [v]
  | 0, _ :: c' => v :: c'
  | S t', [] => 0 :: setc [] t' v
  | S t', x :: c' => x :: setc c' t' v
  end.

Lemma get_setc c t v u : get (setc c t v) u = if Nat.eqb u t then v else get c u.
Proof.
  revert c u; induction t as [|t IH]; intros c u.
  - destruct c, u; unfold get; cbn; try reflexivity. destruct u; reflexivity.
  - destruct c as [|x c], u as [|u]; unfold get in *; cbn [setc nth Nat.eqb]; try reflexivity.
    + rewrite IH. destruct (Nat.eqb u t); [reflexivity|]. destruct u; reflexivity.
    + apply IH.
Qed.

Definition tick (c : clock) (t : nat) : clock := setc c t (S (get c t)).

Lemma cle_refl {c} : cle c c. Proof. intros t; lia. Qed.
Lemma cle_trans {a b c} : cle a b -> cle b c -> cle a c.
Proof. intros H1 H2 t; specialize (H1 t); specialize (H2 t); lia. Qed.
Lemma cle_join_l {a b} : cle a (join a b). Proof. intros t; rewrite get_join; lia. Qed.
Lemma cle_join_r {a b} : cle b (join a b). Proof. intros t; rewrite get_join; lia. Qed.
Lemma cle_join_lub {a b c} : cle a c -> cle b c -> cle (join a b) c.
Proof. intros H1 H2 t; rewrite get_join; specialize (H1 t); specialize (H2 t); lia. Qed.
Lemma cle_tick {c} t : cle c (tick c t).
Proof. intros u; unfold tick; rewrite get_setc; destruct (Nat.eqb_spec u t); subst; lia. Qed.

Lemma cle_join_mono {a b c d} : cle a c -> cle b d -> cle (join a b) (join c d).
Proof. intros H1 H2 t; rewrite !get_join; specialize (H1 t); specialize (H2 t); lia. Qed.
Lemma cle_setc c d t v : cle c d -> v <= get d t -> cle (setc c t v) d.
Proof. intros H Hv u; rewrite get_setc; destruct (Nat.eqb_spec u t); subst; [exact Hv|apply H]. Qed.
Lemma cle_tick_join {c d} t : cle c (tick (join c d) t).
Proof. exact (cle_trans cle_join_l (cle_tick t)). Qed.

Lemma get_cons_0 x c : get (x :: c) 0 = x. Proof. reflexivity. Qed.
Lemma get_cons_S x c t : get (x :: c) (S t) = get c t. Proof. reflexivity. Qed.

Fixpoint cleb (c d : clock) : bool :=
  match c, d with
  | [], _ => true
  | x :: c', [] => Nat.eqb x 0 && cleb c' []
  | x :: c', y :: d' => Nat.leb x y && cleb c' d'
  end.

Lemma cleb_spec c d : cleb c d = true <-> cle c d.
Proof.
  revert d; induction c as [|x c IH]; intros d; cbn [cleb].
  - split; [intros _ t; rewrite get_nil; lia | reflexivity].
  - destruct d as [|y d].
    + rewrite andb_true_iff, Nat.eqb_eq, IH. split.
      * intros [-> H] [|t]; [rewrite get_cons_0; lia|].
        rewrite get_cons_S, get_nil. specialize (H t). rewrite get_nil in H. lia.
      * intros H. split; [specialize (H 0); rewrite get_cons_0, get_nil in H; lia|].
        intros t. specialize (H (S t)). rewrite get_cons_S in H. rewrite !get_nil in *. lia.
    + rewrite andb_true_iff, Nat.leb_le, IH. split.
      * intros [Hx H] [|t]; [rewrite !get_cons_0; lia| rewrite !get_cons_S; apply H].
      * intros H. split; [specialize (H 0); rewrite !get_cons_0 in H; lia|].
        intros t. specialize (H (S t)). rewrite !get_cons_S in H. exact H.
Qed.

Definition single (t v : nat) : clock := setc [] t v.
Lemma get_single t v u : get (single t v) u = if Nat.eqb u t then v else 0.
Proof. unfold single. rewrite get_setc, get_nil. reflexivity. Qed.
