From Coq Require Import List Arith Lia Bool.
Import ListNotations.
From LSConc Require Import Clock Mach StepSpec Inv Top.

(* The protocol machine carries no buffer contents.  This file adds them as a ghost over schedules whose write steps
   carry the value written, and proves that what a thread can read through a handle, a loan or the duty to free is
   determined by its own writes alone — for every schedule of the other threads, with the thread itself moving too. *)

(* [Inv.reaches] with [T] unfolded: the sole-holder lemmas of Inv.v apply to it as they are *)
Definition holds (s : st) (t : nat) : Prop :=
  refs (getth s t) > 0 \/ lend (getth s t) <> 0 \/ mustfree (getth s t) = true.

Fixpoint held_through (s : st) (t : nat) (l : list (nat * act)) : Prop :=
  holds s t /\
  match l with
  | [] => True
  | (u, a) :: l' => match step s u a with Ok s' => held_through s' t l' | _ => True end
  end.

Lemma write_excludes_all s u s' : Inv s -> step s u AWrite = Ok s' -> forall t, t <> u -> ~ holds s t.
Proof. intros I H t Hne Hh. apply step_ready in H as (He & _). exact (Hne (excl_sole s u t I He Hh)). Qed.

Lemma free_excludes_all s u s' : Inv s -> step s u AFree = Ok s' -> forall t, t <> u -> ~ holds s t.
Proof. intros I H t Hne Hh. apply step_ready in H as (Hm & _). exact (Hne (mustfree_sole s u t I Hm Hh)). Qed.

(* every write, reallocation or release of the buffer that happens while t can reach it is t's own *)
Theorem writes_while_held_are_own t : forall sched s s',
  Inv s -> run s sched = Ok s' -> held_through s t sched ->
  Forall (fun ua => (snd ua = AWrite \/ snd ua = AFree) -> fst ua = t) sched.
Proof.
  induction sched as [|[u a] l IH]; intros s s' I Hrun (Hs & Hh); [constructor|].
  cbn [run] in Hrun. destruct (step s u a) as [s1|e|] eqn:E; try discriminate.
  constructor; [|exact (IH s1 s' (Pres.pres s u a s1 I E) Hrun Hh)].
  cbn [fst snd]. intros [->| ->]; destruct (Nat.eq_dec u t) as [|Hne]; auto; exfalso.
  - exact (write_excludes_all s u s1 I E t ltac:(auto) Hs).
  - exact (free_excludes_all s u s1 I E t ltac:(auto) Hs).
Qed.

Section Data.
  Variable D : Type.
  (* a schedule whose steps carry a datum; only a write's datum matters: it is what the buffer holds afterwards *)
  Definition dstep := (nat * act * D)%type.
  Definition plain (l : list dstep) : list (nat * act) := map fst l.

  Fixpoint contents (d : D) (l : list dstep) : D :=
    match l with
    | [] => d
    | (_, AWrite, x) :: l' => contents x l'
    | _ :: l' => contents d l'
    end.
  Fixpoint own_contents (t : nat) (d : D) (l : list dstep) : D :=
    match l with
    | [] => d
    | (u, AWrite, x) :: l' => own_contents t (if Nat.eqb u t then x else d) l'
    | _ :: l' => own_contents t d l'
    end.

  Lemma contents_own t : forall l d,
    Forall (fun ua => (snd ua = AWrite \/ snd ua = AFree) -> fst ua = t) (plain l) -> contents d l = own_contents t d l.
  Proof.
    induction l as [|[[u a] x] l IH]; intros d F; [reflexivity|].
    cbn [plain map fst] in F. inversion F as [|? ? H1 F']; subst. cbn [fst snd] in H1.
    destruct a; cbn [contents own_contents]; try (apply IH; exact F').
    rewrite (H1 (or_introl eq_refl)), Nat.eqb_refl. apply IH; exact F'.
  Qed.

  (* Under every schedule: from a state of the invariant, while thread t can reach the buffer, the buffer holds what
     t's own writes made of it — the steps of all other threads, in whatever order, contribute nothing *)
  Theorem contents_thread_local t l s s' d :
    Inv s -> run s (plain l) = Ok s' -> held_through s t (plain l) -> contents d l = own_contents t d l.
  Proof. intros I Hrun Hh. apply contents_own. exact (writes_while_held_are_own t (plain l) s s' I Hrun Hh). Qed.

  Lemma run_app l1 : forall l2 s s', run s (l1 ++ l2) = Ok s' -> exists s1, run s l1 = Ok s1 /\ run s1 l2 = Ok s'.
  Proof.
    induction l1 as [|[u a] l1 IH]; intros l2 s s' H; cbn [app run] in *; [eauto|].
    destruct (step s u a) as [s1|e|]; try discriminate. apply IH; exact H.
  Qed.
  Lemma held_through_app t l1 : forall l2 s, held_through s t (l1 ++ l2) -> held_through s t l1.
  Proof.
    induction l1 as [|[u a] l1 IH]; intros l2 s H; cbn [app held_through] in *.
    - destruct l2 as [|[u a] l2]; cbn [held_through] in H; tauto.
    - destruct H as (Hs & H). split; [exact Hs|]. destruct (step s u a); auto. eapply IH; exact H.
  Qed.
  (* and at every point on the way (every prefix of the schedule) *)
  Theorem contents_thread_local_prefix t l1 l2 s s' d :
    Inv s -> run s (plain (l1 ++ l2)) = Ok s' -> held_through s t (plain (l1 ++ l2)) ->
    contents d l1 = own_contents t d l1.
  Proof.
    intros I Hrun Hh. unfold plain in *. rewrite map_app in *.
    destruct (run_app _ _ _ _ Hrun) as (s1 & H1 & _).
    exact (contents_thread_local t l1 s s1 d I H1 (held_through_app t _ _ s Hh)).
  Qed.
End Data.

(* the premises are met: thread 0 writes 7, clones and hands one handle to thread 1; thread 1 cannot write (it is not
   exclusive), drops its handle; thread 0 observes uniqueness again and writes 9.  Throughout, thread 0 holds *)
Definition ex_sched : list (dstep nat) :=
  [ (0, AProbe 0, 0); (0, AWrite, 7); (0, AClone, 0); (0, ASpawn 1 1, 0); (1, ARead, 0); (1, ARelease, 0);
    (0, AProbe 0, 0); (0, AWrite, 9); (0, ARead, 0) ].
Example ex_sched_runs : is_ok (run (init 1) (plain nat ex_sched)) = true.
Proof. vm_compute. reflexivity. Qed.
Example ex_sched_contents : contents nat 0 ex_sched = 9 /\ own_contents nat 0 0 ex_sched = 9 /\ own_contents nat 1 0 ex_sched = 0.
Proof. vm_compute. auto. Qed.
Example ex_sched_held : held_through (init 1) 0 (plain nat ex_sched).
Proof. vm_compute. repeat split; auto; lia. Qed.
(* a foreign write is not a step of the machine: thread 1, holding a shared handle, cannot write *)
Example ex_foreign_write_stuck :
  run (init 1) (plain nat [ (0, AClone, 0); (0, ASpawn 1 1, 0); (1, AProbe 0, 0); (1, AWrite, 5) ]) = Stuck.
Proof. vm_compute. reflexivity. Qed.
