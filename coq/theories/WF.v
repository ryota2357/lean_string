(* WF.v — the pool-level invariant, and its preservation when a step rewrites one slot or a constructor appends one. *)
From Coq Require Import Arith.
From LS Require Import Base Utf8Spec Cmd Impl Wp ListFacts Inv Exec Specs.
Open Scope N_scope.

Definition slot_names (s : option repr) (b : bufid) : N :=
  match s with Some r => one (names r b) | None => 0 end.
Fixpoint refs (p : list (option repr)) (b : bufid) : N :=
  match p with
  | [] => 0
  | s :: p' => slot_names s b + refs p' b
  end.

Record WF (w : world) : Prop := {
  wf_mi : MI (heap (wmem w)) (refs (pool w));
  wf_handles : forall i r, nth_error (pool w) i = Some (Some r) -> handle_ok (heap (wmem w)) (statics (wmem w)) r;
  wf_statics : Forall Valid (statics (wmem w));
}.

Lemma refs_app p s b : refs (p ++ [s]) b = refs p b + slot_names s b.
Proof. induction p as [|x p IH]; cbn [refs app]; [lia|]. lia. Qed.
Lemma refs_upd p i s s' b :
  nth_error p i = Some s -> refs (upd p i s') b + slot_names s b = refs p b + slot_names s' b.
Proof.
  revert i; induction p as [|x p IH]; intros [|i] H; cbn [nth_error upd refs] in *; try discriminate.
  - injection H as ->. lia.
  - specialize (IH i H). lia.
Qed.

Lemma get_slot_nth w i r : get_slot w i = Some r <-> nth_error (pool w) i = Some (Some r).
Proof.
  unfold get_slot. destruct (nth_error (pool w) i) as [[x|]|]; split; congruence.
Qed.

Lemma counted_refs {p i r} : nth_error p i = Some (Some r) -> counted (refs p) r.
Proof. intros H b Hb. pose proof (refs_upd p i _ None b H) as E. cbn [slot_names] in E. rewrite Hb in E. cbn [one] in E. lia. Qed.
Lemma refs_clear p i r b :
  nth_error p i = Some (Some r) -> refs (upd p i None) b = refs p b - one (names r b).
Proof.
  intros H. pose proof (refs_upd p i (Some r) None b H) as E. cbn [slot_names] in *. lia.
Qed.
(* a different slot keeps its buffer out of reach of the operation *)
Lemma others_of_other_slot p i j r rj b :
  i <> j -> nth_error p i = Some (Some r) -> nth_error p j = Some (Some rj) -> names rj b = true -> others (refs p) r b.
Proof.
  intros Hne Hi Hj Hb. unfold others. pose proof (refs_upd p i _ None b Hi) as Ei.
  rewrite <- (nth_error_upd_ne p i j None (not_eq_sym Hne)) in Hj.
  pose proof (refs_upd _ j _ None b Hj) as Ej. cbn [slot_names] in *. rewrite Hb in Ej. cbn [one] in Ej. lia.
Qed.

Lemma wf_handle {w i r} : WF w -> nth_error (pool w) i = Some (Some r) -> handle_ok (heap (wmem w)) (statics (wmem w)) r.
Proof. intros [_ H _]. apply H. Qed.
Lemma wf_pre {w i r} : WF w -> nth_error (pool w) i = Some (Some r) -> pre (wmem w) (refs (pool w)) r.
Proof. intros HW Hi. exact (conj (wf_mi _ HW) (conj (wf_handle HW Hi) (counted_refs Hi))). Qed.
Lemma ctor_pre {m own m' r'} : ctor_ok m own m' r' -> pre m' (fun b => own b + one (names r' b)) r'.
Proof.
  intros C. split; [exact (co_mi C)|]. split; [exact (co_h C)|]. intros b Hb. rewrite Hb. cbn [one]. lia.
Qed.

Definition abs (w : world) : list (option (list N)) := map (option_map (text_of (wmem w))) (pool w).

(* an in-place step on slot i, which then holds the new handle, or nothing if that handle names no buffer and is dropped *)
Lemma wf_set_slot w i r m' r' s :
  WF w -> nth_error (pool w) i = Some (Some r) -> step_ok (wmem w) (refs (pool w)) r m' r' ->
  s = Some r' \/ (s = None /\ forall b, names r' b = false) ->
  WF (set_slot w m' i s)
  /\ (forall j rj, j <> i -> nth_error (pool w) j = Some (Some rj) ->
        text_of m' rj = text_of (wmem w) rj /\ cap_of m' rj = cap_of (wmem w) rj).
Proof.
  intros [WM WH WS] Hi [E M H F] Hs.
  assert (K : forall j rj, j <> i -> nth_error (pool w) j = Some (Some rj) ->
                handle_ok (heap m') (statics m') rj
                /\ text_of m' rj = text_of (wmem w) rj /\ cap_of m' rj = cap_of (wmem w) rj).
  { intros j rj Hne Hj. apply (handle_framed (WH j rj Hj) F (proj1 E)).
    intros b. apply (others_of_other_slot (pool w) i j r rj b); auto. }
  split; [split; cbn [set_slot pool wmem]|intros j rj Hne Hj; apply (K j rj Hne Hj)].
  - assert (Es : forall b, slot_names s b = one (names r' b)).
    { intros b. destruct Hs as [->|(-> & Hn)]; cbn [slot_names]; [|rewrite Hn]; reflexivity. }
    eapply MI_ext; [exact M|]. intros b. unfold adj. rewrite <- Es.
    pose proof (refs_upd (pool w) i _ s b Hi) as G. cbn [slot_names] in G.
    pose proof (counted_one b (counted_refs Hi)). lia.
  - intros j rj Hj. destruct (Nat.eq_dec j i) as [->|Hne].
    + rewrite nth_error_upd_eq in Hj by (eapply nth_error_lt; eauto). injection Hj as Ej.
      destruct Hs as [->|(-> & _)]; [injection Ej as <-; exact H|discriminate].
    + rewrite nth_error_upd_ne in Hj by exact Hne. apply (K j rj Hne Hj).
  - rewrite (proj1 E). exact WS.
Qed.

(* what the memory a constructor leaves must satisfy for the new slot [s] (empty if the constructor failed) *)
Definition ctor_inv (w : world) (m' : mem) (s : option repr) : Prop :=
  match s with
  | Some r' => ctor_ok (wmem w) (refs (pool w)) m' r'
  | None => same_env (wmem w) m' /\ MI (heap m') (refs (pool w))
            /\ frame (heap (wmem w)) (heap m') (fun b => 1 <= refs (pool w) b)
  end.
Lemma ctor_inv_same w m' : WF w -> same_env (wmem w) m' -> heap m' = heap (wmem w) -> ctor_inv w m' None.
Proof. intros HW He Hh. cbn [ctor_inv]. rewrite Hh. exact (conj He (conj (wf_mi _ HW) (frame_refl _ _))). Qed.
Lemma ctor_inv_statics {w m' s} : ctor_inv w m' s -> statics m' = statics (wmem w).
Proof. destruct s; [intros [E _ _ _]|intros (E & _)]; exact (proj1 E). Qed.

Lemma wf_append w m' s :
  WF w -> ctor_inv w m' s ->
  WF (append_slot w m' s)
  /\ (forall j rj, nth_error (pool w) j = Some (Some rj) ->
        text_of m' rj = text_of (wmem w) rj /\ cap_of m' rj = cap_of (wmem w) rj).
Proof.
  intros [WM WH WS] Hinv.
  assert (G : MI (heap m') (refs (pool w ++ [s])) /\ (forall r', s = Some r' -> handle_ok (heap m') (statics m') r')
              /\ frame (heap (wmem w)) (heap m') (fun b => 1 <= refs (pool w) b)).
  { destruct s as [r'|]; [destruct Hinv as [_ M H F]|destruct Hinv as (_ & M & F)];
      (split; [eapply MI_ext; [exact M|intros b; rewrite refs_app; cbn [slot_names]; lia]|]); split; auto; congruence. }
  destruct G as (M & H & F). pose proof (ctor_inv_statics Hinv) as Es.
  assert (K : forall j rj, nth_error (pool w) j = Some (Some rj) ->
                handle_ok (heap m') (statics m') rj
                /\ text_of m' rj = text_of (wmem w) rj /\ cap_of m' rj = cap_of (wmem w) rj).
  { intros j rj Hj. exact (handle_framed (WH j rj Hj) F Es (counted_refs Hj)). }
  split; [split; cbn [append_slot pool wmem]|intros j rj Hj; apply (K j rj Hj)].
  - exact M.
  - intros j rj Hj. destruct (nth_error_snoc Hj) as [Hj'|E]; [apply (K j rj Hj')|apply H; congruence].
  - rewrite Es. exact WS.
Qed.

Definition val {R} (Q : R -> mem -> Prop) : out R -> mem -> Prop :=
  fun o m => match o with OVal x => Q x m | OUb _ => False end.
Lemma wp_val {R} {c : cmd R} {Q : R -> mem -> Prop} {m} : wp c (val Q) m -> exists x m', run c m = (OVal x, m') /\ Q x m'.
Proof. unfold wp. destruct (run c m) as [[x|u] m']; [exists x, m'; auto|contradiction]. Qed.

Lemma wf_world0x st orc ex : Forall Valid st -> WF (world0x st orc ex).
Proof.
  split; auto.
  - intros b. destruct b; reflexivity.
  - destruct i; discriminate.
Qed.
Lemma wf_world0 st orc : Forall Valid st -> WF (world0 st orc).
Proof. apply wf_world0x. Qed.
