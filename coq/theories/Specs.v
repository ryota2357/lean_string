(* Specs.v — specifications of the Repr-level functions (repr.rs) as weakest-precondition rules.
   Each rule says: from a well-formed memory and handle, the function does not reach UB, and whatever it returns
   satisfies the stated relation between the old and the new memory/handle.
   A rule whose command only continues a function takes, besides the memory [m] in which the handle was found
   well-formed, the memory [m0] it runs in, with [read_only m m0]: what its caller knows stays stated about [m]. *)
From Coq Require Import Arith.
From LS Require Import Base Utf8Spec Utf8Facts Cmd Impl Wp ListFacts Growth Inv InlineFacts Exec.
From LSGen Require Import GenSrc.
Open Scope N_scope.

Definition counted (own : bufid -> N) (r : repr) : Prop := forall b, names r b = true -> 1 <= own b.
Definition adj (own : bufid -> N) (r r' : repr) : bufid -> N :=
  fun b => own b - one (names r b) + one (names r' b).
Definition others (own : bufid -> N) (r : repr) : bufid -> Prop := fun b => 1 <= own b - one (names r b).

Definition exclusive (h : list buf) (r : repr) : Prop :=
  match r with
  | Inline _ => True
  | Heap b _ => exists x, nth_error h b = Some x /\ live x = true /\ count x = 1
  | Static _ _ => False
  end.

(* exclusive, and no handle outside this world either (the sequential case, or after all foreign owners are known to
   be gone): the premise of every "edits in place" clause *)
Definition xcl (m : mem) (r : repr) : Prop := quiet m /\ exclusive (heap m) r.

Record step_ok (m : mem) (own : bufid -> N) (r : repr) (m' : mem) (r' : repr) : Prop := {
  so_env : same_env m m';
  so_mi : MI (heap m') (adj own r r');
  so_h : handle_ok (heap m') (statics m') r';
  so_frame : frame (heap m) (heap m') (others own r);
}.
Lemma step_env {m own r m' r'} : step_ok m own r m' r' -> same_env m m'.
Proof. intros [E _ _ _]. exact E. Qed.
Lemma step_statics {m own r m' r'} : step_ok m own r m' r' -> statics m' = statics m.
Proof. intros S. exact (proj1 (step_env S)). Qed.
Lemma step_frame {m own r m' r'} : step_ok m own r m' r' -> frame (heap m) (heap m') (others own r).
Proof. intros [_ _ _ F]. exact F. Qed.

(* a function-level postcondition: memory, counts and handle before; memory and handle after; what was returned *)
Definition post (X : Type) : Type := mem -> (bufid -> N) -> repr -> mem -> repr -> X -> Prop.
(* the shape of a function's specification: run on a counted, well-formed handle in a well-formed memory, [g r]
   reaches no UB and what it returns satisfies [P] *)
Definition op_spec {X} (g : repr -> cmd (repr * X)) (P : post X) : Prop :=
  forall m own r (Q : out (repr * X) -> mem -> Prop),
    MI (heap m) own -> handle_ok (heap m) (statics m) r -> counted own r ->
    (forall m' r' x, P m own r m' r' x -> Q (OVal (r', x)) m') -> wp (g r) Q m.

Lemma names_heap_eq b l b' : names (Heap b l) b' = Nat.eqb b b'. Proof. reflexivity. Qed.
Lemma handle_ok_env h st st' r : st' = st -> handle_ok h st r -> handle_ok h st' r.
Proof. intros ->. auto. Qed.

Lemma counted_adj own r r1 : counted (adj own r r1) r1.
Proof. intros b Hb. unfold adj. rewrite Hb. cbn [one]. lia. Qed.

(* the premises every function specification asks of the handle it is run on *)
Definition pre (m : mem) (own : bufid -> N) (r : repr) : Prop :=
  MI (heap m) own /\ handle_ok (heap m) (statics m) r /\ counted own r.
Lemma step_pre {m own r m' r'} : step_ok m own r m' r' -> pre m' (adj own r r') r'.
Proof. intros [_ M H _]. exact (conj M (conj H (counted_adj own r r'))). Qed.
Lemma counted_one {own r} b : counted own r -> one (names r b) <= own b.
Proof. intros Hc. specialize (Hc b). destruct (names r b); cbn [one]; [auto|lia]. Qed.
Lemma names_below {h st r} : handle_ok h st r -> names r (length h) = false.
Proof.
  destruct r as [bs|b l|s l]; try reflexivity. intros (x & Hb & _).
  apply nth_error_lt in Hb. apply Nat.eqb_neq. lia.
Qed.

Lemma text_of_heap m b l x : nth_error (heap m) b = Some x -> text_of m (Heap b l) = firstn (N.to_nat l) (data x).
Proof. intros H. cbn [text_of]. rewrite H. reflexivity. Qed.

Lemma text_len m r : handle_ok (heap m) (statics m) r -> len (text_of m r) = repr_len r.
Proof.
  destruct r as [bs|b l|s l]; cbn [handle_ok text_of repr_len].
  - intros (H1 & _). apply inline_text_length. exact H1.
  - intros (x & -> & _ & Hl & Hd & _). rewrite len_firstn. lia.
  - intros (t & -> & Hl & _). rewrite len_firstn. lia.
Qed.
Lemma text_valid m r : handle_ok (heap m) (statics m) r -> Valid (text_of m r).
Proof.
  destruct r as [bs|b l|s l]; cbn [handle_ok text_of].
  - intros (_ & H & _). exact H.
  - intros (x & -> & _ & _ & _ & H). exact H.
  - intros (t & -> & _ & _ & H). exact H.
Qed.
Lemma repr_len_le_cap m r : handle_ok (heap m) (statics m) r -> repr_len r <= cap_of m r.
Proof.
  destruct r as [bs|b l|s l]; cbn [handle_ok cap_of repr_len].
  - intros _. apply inline_len_le.
  - intros (x & -> & _ & Hl & _). exact Hl.
  - lia.
Qed.
Lemma repr_len_bound m r : handle_ok (heap m) (statics m) r -> MI (heap m) (fun _ => 0) \/ True -> True.
Proof. auto. Qed.
Lemma cap_of_bound m own r : MI (heap m) own -> handle_ok (heap m) (statics m) r -> cap_of m r <= MAX_LEN.
Proof.
  intros HM Hr. destruct r as [bs|b l|s l]; cbn [cap_of].
  - rewrite max_inline_16. unfold MAX_LEN. lia.
  - destruct (heap_handle_inv HM Hr) as (x & -> & _ & (_ & _ & W) & _). exact W.
  - destruct Hr as (t & _ & Hl & Hm & _). unfold STATIC_MAX_LENGTH, MAX_LEN in *. lia.
Qed.
Lemma handle_len_bound m own r :
  MI (heap m) own -> handle_ok (heap m) (statics m) r -> repr_len r <= MAX_LEN.
Proof. intros HM Hr. pose proof (repr_len_le_cap m r Hr). pose proof (cap_of_bound m own r HM Hr). lia. Qed.

Lemma text_of_same m m' r : same_env m m' -> heap m' = heap m -> text_of m' r = text_of m r.
Proof. intros (E & _) Hh. destruct r; cbn [text_of]; rewrite ?Hh, ?E; reflexivity. Qed.
Lemma cap_of_same m m' r : heap m' = heap m -> cap_of m' r = cap_of m r.
Proof. intros Hh. destruct r; cbn [cap_of]; rewrite ?Hh; reflexivity. Qed.
Lemma handle_ok_same m m' r :
  same_env m m' -> heap m' = heap m -> handle_ok (heap m) (statics m) r -> handle_ok (heap m') (statics m') r.
Proof. intros (E & _) Hh Hr. rewrite Hh, E. exact Hr. Qed.
Lemma handle_framed {m m' r} {keep : bufid -> Prop} :
  handle_ok (heap m) (statics m) r -> frame (heap m) (heap m') keep -> statics m' = statics m ->
  (forall b, names r b = true -> keep b) ->
  handle_ok (heap m') (statics m') r /\ text_of m' r = text_of m r /\ cap_of m' r = cap_of m r.
Proof.
  intros Hr F Hs Hk. destruct r as [bs|b l|s l]; cbn [text_of cap_of]; rewrite ?Hs; auto.
  destruct Hr as (x & Hb & Hl & Hr). destruct (F b x) as (x' & Hb' & (E1 & _ & E3 & E4)); auto.
  { apply Hk. apply Nat.eqb_refl. }
  rewrite Hb, Hb', E4. split; [|auto]. exists x'. rewrite E1, E3, E4. auto.
Qed.

Lemma step_ok_local m own r r' m' :
  MI (heap m) own -> counted own r -> (forall b, names r' b = names r b) ->
  same_env m m' -> heap m' = heap m -> handle_ok (heap m) (statics m) r' -> step_ok m own r m' r'.
Proof.
  intros HM Hc Hn He Hh Hr'. split; auto.
  - rewrite Hh. eapply MI_ext; [exact HM|]. intros b. unfold adj. rewrite Hn. pose proof (counted_one b Hc). lia.
  - eapply handle_ok_same; eauto.
  - rewrite Hh. apply frame_refl.
Qed.
Lemma step_ok_refl m own r m' :
  MI (heap m) own -> handle_ok (heap m) (statics m) r -> counted own r ->
  same_env m m' -> heap m' = heap m -> step_ok m own r m' r.
Proof. intros HM Hr Hc He Hh. apply step_ok_local; auto. Qed.
Lemma step_ok_trans {m own r m1 r1 m2 r2} :
  step_ok m own r m1 r1 -> step_ok m1 (adj own r r1) r1 m2 r2 -> step_ok m own r m2 r2.
Proof.
  intros [E1 M1 H1 F1] [E2 M2 H2 F2]. split.
  - eapply same_env_trans; eauto.
  - eapply MI_ext; [exact M2|]. intros b. unfold adj. lia.
  - exact H2.
  - eapply frame_trans; [exact F1|]. eapply frame_weaken; [exact F2|].
    intros b. unfold others, adj. lia.
Qed.
(* for the clauses that say a call changed nothing a handle can see *)
Create HintDb unchanged discriminated.
#[export] Hint Resolve step_ok_refl text_of_same same_env_refl : unchanged.

Lemma own_buf_step_ok m own b l l' x x' m' :
  MI (heap m) own -> nth_error (heap m) b = Some x -> live x = true -> count x = 1 ->
  live x' = true -> count x' = 1 -> buf_wf x' -> l' <= cap x' -> Valid (firstn (N.to_nat l') (data x')) ->
  same_env m m' -> heap m' = upd (heap m) b x' ->
  step_ok m own (Heap b l) m' (Heap b l')
  /\ text_of m' (Heap b l') = firstn (N.to_nat l') (data x')
  /\ exclusive (heap m') (Heap b l') /\ cap_of m' (Heap b l') = cap x'.
Proof.
  intros HM Hb Hl Hc Hl' Hc' Hw' Hlc Hv He Hh.
  destruct (MI_lookup HM Hb Hl) as (_ & Hcx & _).
  assert (Hb' : nth_error (heap m') b = Some x').
  { rewrite Hh. apply nth_error_upd_eq. eapply nth_error_lt; eauto. }
  split; [|split; [|split]].
  - split.
    + exact He.
    + rewrite Hh. eapply MI_upd; [exact HM|exact Hb| |]; unfold adj; cbn [names].
      * rewrite Hl', Nat.eqb_refl. cbn [one]. split; [exact Hw'|]. lia.
      * intros b' Hne. apply Nat.eqb_neq in Hne. rewrite Nat.eqb_sym, Hne. cbn [one]. lia.
    + exists x'. destruct Hw' as (_ & W & _). auto.
    + rewrite Hh. apply (frame_upd _ b x); [exact Hb|]. unfold others. cbn [names]. rewrite Nat.eqb_refl. cbn [one]. lia.
  - cbn [text_of]. rewrite Hb'. reflexivity.
  - exists x'. auto.
  - cbn [cap_of]. rewrite Hb'. reflexivity.
Qed.

Set Implicit Arguments.
Record ctor_ok (m : mem) (own : bufid -> N) (m' : mem) (r' : repr) : Prop := {
  co_env : same_env m m';
  co_mi : MI (heap m') (fun b => own b + one (names r' b));
  co_h : handle_ok (heap m') (statics m') r';
  co_frame : frame (heap m) (heap m') (fun b => 1 <= own b);
}.
Unset Implicit Arguments.

Lemma ctor_ok_nonheap m own m' r' :
  MI (heap m) own -> same_env m m' -> heap m' = heap m -> is_heap r' = false ->
  handle_ok (heap m) (statics m) r' -> ctor_ok m own m' r'.
Proof.
  intros HM He Hh Hn Hr. split; auto.
  - rewrite Hh. eapply MI_ext; [exact HM|]. destruct r'; try discriminate Hn; cbn [names one]; lia.
  - eapply handle_ok_same; eauto.
  - rewrite Hh. apply frame_refl.
Qed.
Lemma ctor_ok_fresh {m own t c m'} :
  MI (heap m) own -> same_env m m' -> heap m' = heap m ++ [mkbuf c (filled c t)] ->
  Valid t -> len t <= c -> c <= MAX_LEN ->
  ctor_ok m own m' (Heap (length (heap m)) (len t))
  /\ text_of m' (Heap (length (heap m)) (len t)) = t
  /\ cap_of m' (Heap (length (heap m)) (len t)) = c
  /\ exclusive (heap m') (Heap (length (heap m)) (len t)).
Proof.
  intros HM He Hh Hv Hlc Hc.
  assert (Hnew : nth_error (heap m') (length (heap m)) = Some (mkbuf c (filled c t))) by (rewrite Hh; apply lookup_last).
  pose proof (len_filled c t Hlc) as Hfill. pose proof (firstn_filled c t) as Hfirst.
  cbn [text_of cap_of exclusive]. rewrite Hnew. cbn [mkbuf data cap]. split; [|rewrite Hfirst; eauto 8].
  split.
  - exact He.
  - rewrite Hh. eapply MI_new; [exact HM|reflexivity| |reflexivity|].
    + unfold buf_wf. auto.
    + intros b. rewrite (Nat.eqb_sym b). reflexivity.
  - exists (mkbuf c (filled c t)). cbn [mkbuf live cap data]. rewrite Hfirst. auto.
  - rewrite Hh. apply frame_app.
Qed.
Lemma ctor_ok_keeps {m own m' r' r} :
  ctor_ok m own m' r' -> counted own r -> handle_ok (heap m) (statics m) r -> handle_ok (heap m') (statics m') r.
Proof.
  intros [(E & _) _ _ F] Hc Hr. exact (proj1 (handle_framed Hr F E Hc)).
Qed.

Lemma inline_handle_ok h st t : Valid t -> (length t <= 16)%nat -> handle_ok h st (Inline (inline_new t)).
Proof.
  intros Hv Hl. split; [apply inline_new_length; exact Hl|].
  split; [rewrite inline_new_text; auto|apply inline_new_lastbyte; auto].
Qed.

Definition drop_ref (h : list buf) (r : repr) : list buf :=
  match r with
  | Heap b _ => match nth_error h b with Some x => upd h b (released x) | None => h end
  | _ => h
  end.

Lemma replace_inner_wp m own r other m0 (Q : out repr -> mem -> Prop) :
  MI (heap m) own -> handle_ok (heap m) (statics m) r -> read_only m m0 ->
  (forall m', same_env m m' -> heap m' = drop_ref (heap m) r -> nreq m' = nreq m -> Q (OVal other) m') ->
  wp (replace_inner r other) Q m0.
Proof.
  intros HM Hr (He0 & Hh0 & Hn0) HQ. destruct r as [bs|b l|s l]; try (apply wp_ret; apply HQ; assumption).
  destruct (heap_handle_inv HM Hr) as (x & Hb & Hl & Hw & Hc & Ho & _).
  cbn [drop_ref] in HQ. rewrite Hb in HQ.
  eapply replace_inner_heap_wp; [rewrite Hh0; exact Hb|exact Hl|exact Hw|lia|].
  intros m' He Hh Hn. apply HQ; [eapply same_env_trans; eauto|congruence|congruence].
Qed.

Lemma drop_ref_other h r b : names r b = false -> nth_error (drop_ref h r) b = nth_error h b.
Proof.
  destruct r as [bs|b0 l|s l]; cbn [drop_ref names]; try reflexivity. intros Hne.
  destruct (nth_error h b0); [|reflexivity]. apply nth_error_upd_ne. apply Nat.eqb_neq in Hne. congruence.
Qed.
Lemma MI_drop_ref {h st own r} :
  MI h own -> handle_ok h st r -> MI (drop_ref h r) (fun b => own b - one (names r b)).
Proof.
  intros HM Hr. destruct r as [bs|b l|s l]; cbn [drop_ref names one];
    try (eapply MI_ext; [exact HM|intros; lia]).
  destruct (heap_handle_inv HM Hr) as (x & Hb & Hl & (W1 & W2 & W3) & Hc & Ho & _). rewrite Hb.
  eapply MI_upd; [exact HM|exact Hb| |].
  - rewrite Nat.eqb_refl. cbn [one]. unfold released.
    destruct (N.eqb_spec (count x) 1) as [E1|E1]; cbn [live]; [lia|].
    unfold buf_wf. cbn [asize cap data count]. repeat split; lia.
  - intros b' Hne. apply Nat.eqb_neq in Hne. rewrite Nat.eqb_sym, Hne. cbn [one]. lia.
Qed.
Lemma frame_drop_ref {h st own r} :
  MI h own -> handle_ok h st r -> frame h (drop_ref h r) (fun b => 1 <= own b - one (names r b)).
Proof.
  intros HM Hr. destruct r as [bs|b l|s l]; cbn [drop_ref]; try apply frame_refl.
  destruct (heap_handle_inv HM Hr) as (x & Hb & Hl & _ & Hc & _). rewrite Hb.
  apply (frame_upd h b x); [exact Hb|]. cbn [names]. rewrite Nat.eqb_refl. cbn [one]. intros Hk. unfold released.
  destruct (N.eqb_spec (count x) 1) as [E|E]; [lia|]. repeat split. auto.
Qed.

Lemma repr_new_ok h st : handle_ok h st repr_new.
Proof. unfold repr_new. rewrite inline_empty_eq. apply inline_handle_ok; [apply valid_nil|cbn; lia]. Qed.
Lemma repr_new_text m : text_of m repr_new = [].
Proof. unfold repr_new. rewrite inline_empty_eq. apply inline_new_text; [apply valid_nil|cbn; lia]. Qed.

Set Implicit Arguments.
Record rehoused (m : mem) (own : bufid -> N) (r : repr) (c : N) (m' : mem) (r' : repr) : Prop := {
  rh_step : step_ok m own r m' r';
  rh_text : text_of m' r' = text_of m r;
  rh_len : repr_len r' = repr_len r;
  rh_excl : exclusive (heap m') r';
  rh_cap : cap_of m' r' = c;
  rh_heap : is_heap r' = true;
  rh_nreq : nreq m' = nreq m + 1;
  rh_max : c <= MAX_LEN;
}.
Unset Implicit Arguments.

Section Handle.
  Context {m : mem} {own : bufid -> N} {r : repr}.
  Hypothesis HM : MI (heap m) own.
  Hypothesis Hr : handle_ok (heap m) (statics m) r.
  Hypothesis Hc : counted own r.

  (* r' has been acquired by a constructor step; then r gives up its reference *)
  Lemma swap_step_ok m1 r' m2 :
    ctor_ok m own m1 r' -> same_env m1 m2 -> heap m2 = drop_ref (heap m1) r -> step_ok m own r m2 r'.
  Proof.
    intros C E2 Hh2. pose proof (ctor_ok_keeps C Hc Hr) as Hr1. destruct C as [E1 M1 H1 F1].
    pose proof (frame_drop_ref M1 Hr1) as F2. pose proof (MI_drop_ref M1 Hr1) as M2.
    rewrite <- Hh2 in F2, M2. split.
    - eapply same_env_trans; eauto.
    - eapply MI_ext; [exact M2|]. intros b. unfold adj. pose proof (counted_one b Hc). lia.
    - apply (handle_framed H1 F2 (proj1 E2)). intros b Hb. rewrite Hb. pose proof (counted_one b Hc). cbn [one]. lia.
    - eapply frame_trans; [eapply frame_weaken; [exact F1|]|eapply frame_weaken; [exact F2|]]; unfold others; lia.
  Qed.

  Lemma release_step r' m' :
    is_heap r' = false -> handle_ok (heap m) (statics m) r' ->
    same_env m m' -> heap m' = drop_ref (heap m) r -> step_ok m own r m' r'.
  Proof.
    intros Hn Hr' He Hh. apply (swap_step_ok m); auto. apply ctor_ok_nonheap; auto.
  Qed.

  Lemma inline_step_ok m' :
    repr_len r <= 16 -> same_env m m' -> heap m' = drop_ref (heap m) r ->
    step_ok m own r m' (Inline (inline_new (text_of m r)))
    /\ text_of m' (Inline (inline_new (text_of m r))) = text_of m r
    /\ repr_len (Inline (inline_new (text_of m r))) = repr_len r.
  Proof.
    intros H16 He Hh.
    pose proof (text_len m r Hr) as Hlt. pose proof (text_valid m r Hr) as Hv.
    assert (Hl : (length (text_of m r) <= 16)%nat) by (unfold len in Hlt; lia).
    pose proof (inline_handle_ok (heap m) (statics m) _ Hv Hl) as Hi.
    pose proof (inline_new_text _ Hv Hl) as Ht.
    split; [|split].
    - apply release_step; auto.
    - exact Ht.
    - rewrite <- (text_len m _ Hi). cbn [text_of]. rewrite Ht. exact Hlt.
  Qed.

  Lemma copy_out_wp A c m0 (Q : out (repr * bool) -> mem -> Prop) :
    read_only m m0 -> allocates A c (text_of m r) -> repr_len r <= c ->
    (forall m', same_env m m' -> heap m' = heap m -> Q (OVal (r, false)) m') ->
    (forall m' r', rehoused m own r c m' r' -> Q (OVal (r', true)) m') ->
    wp (on <- A ;;
        match on with
        | None => Ret (r, false)
        | Some r' => r'' <- replace_inner r r' ;; Ret (r'', true)
        end) Q m0.
  Proof.
    intros (He0 & Hh0 & Hn0) HA Hlc Hf Hs.
    pose proof (text_len m r Hr) as Hlt. pose proof (text_valid m r Hr) as Hv.
    apply wp_seq. apply HA.
    - intros m1 He1 Hh1. apply wp_ret. apply Hf; [eapply same_env_trans; eauto|congruence].
    - intros m1 He1 Hh1 Hn1 Hcm. rewrite Hh0 in *.
      assert (He : same_env m m1) by (eapply same_env_trans; eauto).
      destruct (ctor_ok_fresh HM He Hh1 Hv ltac:(lia) Hcm) as (C & T & K & X).
      rewrite Hlt in *.
      apply wp_seq.
      eapply (replace_inner_wp m1 _ r); [exact (co_mi C)|eapply ctor_ok_keeps; eauto|apply read_only_refl|].
      intros m2 He2 Hh2 Hn2. apply wp_ret. apply Hs.
      (* [r] names nothing at the new buffer's id, so letting go of [r] leaves that buffer, and what the new handle
         sees, as the allocation made it *)
      assert (Hnew : nth_error (heap m2) (length (heap m)) = nth_error (heap m1) (length (heap m))).
      { rewrite Hh2. apply drop_ref_other. exact (names_below Hr). }
      cbn [text_of cap_of exclusive] in T, K, X. rewrite <- Hnew in T, K, X.
      split; [|exact T|reflexivity|exact X|exact K|reflexivity|lia|exact Hcm].
      exact (swap_step_ok m1 _ m2 C He2 Hh2).
  Qed.
End Handle.

Lemma handle_realloc_wp m own b l nc m0 (Q : out bool -> mem -> Prop) :
  MI (heap m) own -> handle_ok (heap m) (statics m) (Heap b l) -> exclusive (heap m) (Heap b l) ->
  read_only m m0 -> l <= nc ->
  (forall m', same_env m m' -> heap m' = heap m -> Q (OVal false) m') ->
  (forall m', rehoused m own (Heap b l) nc m' (Heap b l) -> Q (OVal true) m') ->
  wp (heap_realloc b nc) Q m0.
Proof.
  intros HM Hr (x & Hb & Hl & Hc1) (He0 & Hh0 & Hn0) Hlnc Hf Hs.
  destruct (heap_handle_inv HM Hr) as (x0 & Hb0 & _ & Hw & _ & _ & Hlc & Hv).
  rewrite Hb in Hb0. injection Hb0 as <-.
  eapply heap_realloc_wp; [rewrite Hh0; exact Hb|exact Hl|exact Hw| |].
  - intros m1 He1 Hh1. apply Hf; [eapply same_env_trans; eauto|congruence].
  - intros m1 He1 Hh1 Hn1 Hnc. rewrite Hh0 in Hh1. destruct Hw as (_ & W2 & _).
    assert (Hkeep : firstn (N.to_nat l) (resize (data x) (N.to_nat nc)) = firstn (N.to_nat l) (data x)).
    { unfold resize. apply firstn_app_firstn; unfold len in *; lia. }
    destruct (own_buf_step_ok m own b l l x (resized x nc) m1 HM Hb Hl Hc1 eq_refl eq_refl) as (S1 & S2 & S3 & S4).
    + unfold buf_wf. cbn [resized asize cap data]. rewrite len_resize. repeat split; lia.
    + exact Hlnc.
    + cbn [resized data]. rewrite Hkeep. exact Hv.
    + eapply same_env_trans; eauto.
    + exact Hh1.
    + apply Hs. split; [exact S1| |reflexivity|exact S3|exact S4|reflexivity|lia|exact Hnc].
      rewrite S2. cbn [resized data text_of]. rewrite Hb. exact Hkeep.
Qed.

Lemma as_bytes_wp m r m0 (Q : out (list N) -> mem -> Prop) :
  handle_ok (heap m) (statics m) r -> read_only m m0 ->
  (forall m', read_only m m' -> Q (OVal (text_of m r)) m') ->
  wp (as_bytes r) Q m0.
Proof.
  intros Hr Hro HQ. pose proof Hro as ((Es & _) & Hh & _).
  destruct r as [bs|b l|s l]; cbn [as_bytes text_of handle_ok] in *.
  - apply wp_ret. apply HQ. exact Hro.
  - destruct Hr as (x & Hb & Hl & Hlc & Hd & Hv). rewrite Hb in HQ.
    eapply read_heap_wp; [rewrite Hh; exact Hb|exact Hl|lia|]. intros m' Hro'.
    apply HQ. eapply read_only_trans; eauto.
  - destruct Hr as (t & Hs & Hl & Hm & Hv). rewrite Hs in HQ.
    eapply read_static_wp; [rewrite Es; exact Hs|lia|]. intros m' Hro'.
    apply HQ. eapply read_only_trans; eauto.
Qed.

Lemma handle_hdr_cap_wp m b l m0 (Q : out N -> mem -> Prop) :
  handle_ok (heap m) (statics m) (Heap b l) -> read_only m m0 ->
  Q (OVal (cap_of m (Heap b l))) m0 -> wp (hdr_cap b) Q m0.
Proof.
  intros (x & Hb & Hl & _) (_ & Hh & _) HQ. cbn [cap_of] in HQ. rewrite Hb in HQ.
  eapply hdr_cap_wp; [rewrite Hh; exact Hb|exact Hl|exact HQ].
Qed.

(* the uniqueness test answers [true] only for an exclusive handle, and [false] never for one nobody else holds *)
Lemma heap_unique_wp m own b l m0 (Q : out bool -> mem -> Prop) :
  MI (heap m) own -> handle_ok (heap m) (statics m) (Heap b l) -> read_only m m0 ->
  (forall m' u, read_only m m' -> (u = true -> exclusive (heap m) (Heap b l)) -> (u = false -> ~ xcl m (Heap b l)) ->
                Q (OVal u) m') ->
  wp (heap_is_unique b) Q m0.
Proof.
  intros HM Hr Hro HQ. destruct (heap_handle_inv HM Hr) as (x & Hb & Hl & _ & Hc & Ho & _).
  pose proof Hro as ((_ & _ & Ex) & Hh & _).
  eapply is_unique_wp; [rewrite Hh; exact Hb|exact Hl|lia|]. intros m' u He Hh' Hn Hu Hq.
  apply HQ; [eapply read_only_trans; [exact Hro|split; [exact He|split; assumption]]| |].
  - exists x. auto.
  - intros -> (Hqm & y & Hy & _ & Hy1). rewrite Hb in Hy. injection Hy as <-.
    assert (Hq0 : quiet m0) by (intros k; rewrite Ex; apply Hqm).
    specialize (Hq Hq0). rewrite Hy1 in Hq. discriminate.
Qed.

Set Implicit Arguments.
Record reserve_post (add : N) (m : mem) (own : bufid -> N) (r : repr) (m' : mem) (r' : repr) (ok : bool) : Prop := {
  rp_step : step_ok m own r m' r';
  rp_text : text_of m' r' = text_of m r;
  rp_len : repr_len r' = repr_len r;
  rp_ok : ok = true -> exclusive (heap m') r' /\ repr_len r + add <= cap_of m' r';
  rp_fail : ok = false -> r' = r /\ heap m' = heap m;
  rp_fits : xcl m r -> repr_len r + add <= cap_of m r ->
            ok = true /\ r' = r /\ heap m' = heap m /\ nreq m' = nreq m;
  rp_grow : ok = true ->
            (r' = r /\ heap m' = heap m /\ nreq m' = nreq m)
            \/ (is_heap r' = true /\ cap_of m' r' = amortized_growth (repr_len r) add /\ nreq m' = nreq m + 1)
            \/ (is_static r = true /\ is_heap r' = false /\ is_static r' = false /\ heap m' = heap m /\ nreq m' = nreq m);
}.
Unset Implicit Arguments.

Section Reserve.
  Variables (m : mem) (own : bufid -> N) (r : repr) (add : N).
  Hypothesis HM : MI (heap m) own.
  Hypothesis Hr : handle_ok (heap m) (statics m) r.
  Hypothesis Hc : counted own r.

  Lemma reserve_post_fail m' :
    same_env m m' -> heap m' = heap m -> ~ (xcl m r /\ repr_len r + add <= cap_of m r) ->
    reserve_post add m own r m' r false.
  Proof.
    intros He Hh Hno. split; try discriminate; auto with unchanged.
    intros H1 H2. exfalso. auto.
  Qed.
  Lemma reserve_post_same m' :
    read_only m m' -> exclusive (heap m) r -> repr_len r + add <= cap_of m r ->
    reserve_post add m own r m' r true.
  Proof.
    intros (He & Hh & Hn) Hex Hfit. split; auto with unchanged.
    rewrite Hh, (cap_of_same m m') by exact Hh. auto.
  Qed.
  Lemma reserve_post_rehoused m' r' :
    rehoused m own r (amortized_growth (repr_len r) add) m' r' ->
    ~ (xcl m r /\ repr_len r + add <= cap_of m r) ->
    reserve_post add m own r m' r' true.
  Proof.
    intros [S T L X C H N M] Hno. split; try discriminate; auto.
    - split; [exact X|]. rewrite C. apply growth_ge_required. exact M.
    - intros H1 H2. exfalso. auto.
  Qed.
End Reserve.

Lemma reserve_failed {m own r add m' r'} :
  reserve_post add m own r m' r' false ->
  r' = r /\ step_ok m own r m' r /\ heap m' = heap m /\ ~ (xcl m r /\ repr_len r + add <= cap_of m r).
Proof.
  intros P. destruct (rp_fail P eq_refl) as (-> & Hh). split; [reflexivity|]. split; [exact (rp_step P)|]. split; [exact Hh|].
  intros (H1 & H2). destruct (rp_fits P H1 H2) as (Hbad & _). discriminate.
Qed.

Lemma reserve_wp_at m own r add m0 (Q : out (repr * bool) -> mem -> Prop) :
  MI (heap m) own -> handle_ok (heap m) (statics m) r -> counted own r -> read_only m m0 ->
  (forall m' r' ok, reserve_post add m own r m' r' ok -> Q (OVal (r', ok)) m') ->
  wp (reserve r add) Q m0.
Proof.
  intros HM Hr Hc Hro HQ.
  pose proof (cap_of_bound m own r HM Hr) as Hcap.
  pose proof max_len_usize as Hmu. pose proof Hro as (He0 & Hh0 & _).
  unfold reserve, checked_add.
  destruct (N.leb_spec (repr_len r + add) USIZE_MAX) as [Hsum|Hsum].
  2:{ apply wp_ret. apply HQ. apply reserve_post_fail; auto. lia. }
  (* without room, all three kinds of handle move to a new buffer of the amortized size *)
  assert (Hmove : forall m1, read_only m m1 -> ~ (xcl m r /\ repr_len r + add <= cap_of m r) ->
            wp (on <- heap_with_additional (text_of m r) add ;;
                match on with
                | None => Ret (r, false)
                | Some r' => r'' <- replace_inner r r' ;; Ret (r'', true)
                end) Q m1).
  { intros m1 Hro1 Hno. pose proof (text_len m r Hr) as Hlt.
    apply (copy_out_wp HM Hr Hc _ (amortized_growth (repr_len r) add)); auto.
    - rewrite <- Hlt. apply heap_with_additional_allocates. lia.
    - apply growth_ge_len. lia.
    - intros m' He Hh. apply HQ. apply reserve_post_fail; auto.
    - intros m' r' Hre. apply HQ. apply reserve_post_rehoused; auto. }
  destruct r as [bs|b l|s l]; cbn [repr_len] in *.
  - unfold cond_reserve_inline_grow. rewrite max_inline_16.
    destruct (N.ltb_spec 16 (inline_len bs + add)) as [Hgrow|Hfit].
    + apply Hmove; [exact Hro|]. cbn [cap_of repr_len]. rewrite max_inline_16. lia.
    + apply wp_ret. apply HQ. apply reserve_post_same; cbn [exclusive cap_of repr_len]; auto.
  - apply wp_seq. eapply heap_unique_wp; eauto. intros m1 [|] Hro1 Hu Hnu.
    + apply wp_seq. eapply handle_hdr_cap_wp; eauto.
      unfold cond_reserve_enough. destruct (N.leb_spec (l + add) (cap_of m (Heap b l))) as [Hfit|Hgrow].
      * apply wp_ret. apply HQ. apply reserve_post_same; auto.
      * assert (Hno : ~ (xcl m (Heap b l) /\ l + add <= cap_of m (Heap b l))) by lia.
        apply wp_seq. eapply handle_realloc_wp; eauto.
        -- apply growth_ge_len. lia.
        -- intros m2 He Hh. apply wp_ret. apply HQ. apply reserve_post_fail; auto.
        -- intros m2 Hre. apply wp_ret. apply HQ. apply reserve_post_rehoused; auto.
    + apply wp_seq. apply (as_bytes_wp m (Heap b l) m1); [exact Hr|exact Hro1|]. intros m2 Hro2.
      apply Hmove; [exact Hro2|]. intros (Hx & _). exact (Hnu eq_refl Hx).
  - assert (Hno : ~ (xcl m (Static s l) /\ l + add <= cap_of m (Static s l))) by (intros ((_ & []) & _)).
    apply wp_seq. apply (as_bytes_wp m (Static s l) m0); [exact Hr|exact Hro|]. intros m1 Hro1.
    unfold cond_reserve_static_inline. rewrite max_inline_16.
    destruct (N.leb_spec (l + add) 16) as [Hsmall|Hbig]; [|apply Hmove; assumption].
    apply wp_ret. apply HQ. destruct Hro1 as (He & Hh & Hn).
    destruct (inline_step_ok HM Hr Hc m1) as (S1 & S2 & S3); auto; [cbn [repr_len]; lia|].
    split; try discriminate; auto.
    + cbn [exclusive cap_of]. auto.
    + intros H1 H2. exfalso. auto.
    + right. right. auto.
Qed.
Lemma reserve_wp add : op_spec (fun r => reserve r add) (reserve_post add).
Proof. intros m own r Q HM Hr Hc. apply reserve_wp_at; auto. Qed.

Set Implicit Arguments.
Record modifiable_post (m : mem) (own : bufid -> N) (r : repr) (m' : mem) (r' : repr) (ok : bool) : Prop := {
  mp_step : step_ok m own r m' r';
  mp_text : text_of m' r' = text_of m r;
  mp_len : repr_len r' = repr_len r;
  mp_ok : ok = true -> exclusive (heap m') r';
  mp_fail : ok = false -> r' = r /\ heap m' = heap m;
  mp_same : xcl m r -> ok = true /\ r' = r /\ heap m' = heap m /\ nreq m' = nreq m;
}.
Unset Implicit Arguments.

Section Modifiable.
  Variables (m : mem) (own : bufid -> N) (r : repr).
  Hypothesis HM : MI (heap m) own.
  Hypothesis Hr : handle_ok (heap m) (statics m) r.
  Hypothesis Hc : counted own r.

  Lemma modifiable_post_same m' :
    read_only m m' -> exclusive (heap m) r -> modifiable_post m own r m' r true.
  Proof.
    intros (He & Hh & Hn) Hex. split; auto with unchanged.
    intros _. rewrite Hh. exact Hex.
  Qed.
  Lemma modifiable_post_moved m' r' :
    step_ok m own r m' r' -> text_of m' r' = text_of m r -> repr_len r' = repr_len r -> exclusive (heap m') r' ->
    ~ xcl m r -> modifiable_post m own r m' r' true.
  Proof. split; try discriminate; auto; contradiction. Qed.
End Modifiable.

Lemma modifiable_failed {m own r m' r'} :
  modifiable_post m own r m' r' false -> r' = r /\ step_ok m own r m' r /\ heap m' = heap m /\ ~ xcl m r.
Proof.
  intros P. destruct (mp_fail P eq_refl) as (-> & Hh). split; [reflexivity|]. split; [exact (mp_step P)|]. split; [exact Hh|].
  intros H1. destruct (mp_same P H1) as (Hbad & _). discriminate.
Qed.

Lemma ensure_modifiable_wp_at m own r m0 (Q : out (repr * bool) -> mem -> Prop) :
  MI (heap m) own -> handle_ok (heap m) (statics m) r -> counted own r -> read_only m m0 ->
  (forall m' r' ok, modifiable_post m own r m' r' ok -> Q (OVal (r', ok)) m') ->
  wp (ensure_modifiable r) Q m0.
Proof.
  intros HM Hr Hc Hro HQ. pose proof (text_len m r Hr) as Hlt.
  (* a handle that is not exclusive gets a buffer of exactly its length *)
  assert (Hmove : forall m1, read_only m m1 -> ~ xcl m r ->
            wp (on <- heap_new (text_of m r) ;;
                match on with
                | None => Ret (r, false)
                | Some r' => r'' <- replace_inner r r' ;; Ret (r'', true)
                end) Q m1).
  { intros m1 Hro1 Hno. apply (copy_out_wp HM Hr Hc _ (len (text_of m r))); auto.
    - apply heap_new_allocates.
    - lia.
    - intros m' He Hh. apply HQ. split; try discriminate; auto with unchanged; contradiction.
    - intros m' r' [S T L X _ _ _ _]. apply HQ. apply modifiable_post_moved; auto. }
  unfold ensure_modifiable. destruct r as [bs|b l|s l].
  - apply wp_ret. apply HQ. apply modifiable_post_same; cbn [exclusive]; auto.
  - apply wp_seq. eapply heap_unique_wp; eauto. intros m1 [|] Hro1 Hu Hnu.
    + apply wp_ret. apply HQ. apply modifiable_post_same; auto.
    + apply wp_seq. apply (as_bytes_wp m (Heap b l) m1); [exact Hr|exact Hro1|]. intros m2 Hro2. apply Hmove; auto.
  - assert (Hno : ~ xcl m (Static s l)) by (intros (_ & [])).
    apply wp_seq. apply (as_bytes_wp m (Static s l) m0); [exact Hr|exact Hro|]. intros m1 Hro1.
    unfold from_str, cond_from_str_inline. rewrite max_inline_16.
    destruct (N.leb_spec (len (text_of m (Static s l))) 16) as [Hsmall|Hbig]; [|apply Hmove; assumption].
    apply wp_ret. apply HQ. destruct Hro1 as (He & Hh & Hn).
    destruct (inline_step_ok HM Hr Hc m1) as (S1 & S2 & S3); auto; [lia|].
    apply modifiable_post_moved; cbn [exclusive]; auto.
Qed.
Lemma ensure_modifiable_wp : op_spec ensure_modifiable modifiable_post.
Proof. intros m own r Q HM Hr Hc. apply ensure_modifiable_wp_at; auto. Qed.
