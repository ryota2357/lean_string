From Coq Require Import ZArith.
From LS Require Import Base Utf8Spec Utf8Facts Cmd Impl Wp ListFacts Inv InlineFacts Exec Specs Specs2.
From LSGen Require Import GenSrc.
Open Scope N_scope.

Set Implicit Arguments.
Record from_str_post (m : mem) (own : bufid -> N) (t : list N) (m' : mem) (o : option repr) : Prop := {
  fs_none : o = None -> same_env m m' /\ heap m' = heap m /\ 16 < len t;
  fs_some : forall r', o = Some r' ->
            ctor_ok m own m' r' /\ text_of m' r' = t
            /\ (len t <= 16 -> is_heap r' = false /\ is_static r' = false /\ heap m' = heap m /\ nreq m' = nreq m)
            /\ (16 < len t -> is_heap r' = true /\ cap_of m' r' = len t /\ nreq m' = nreq m + 1 /\ exclusive (heap m') r');
}.
Unset Implicit Arguments.
Lemma from_str_wp m own t (Q : out (option repr) -> mem -> Prop) :
  MI (heap m) own -> Valid t ->
  (forall m' o, from_str_post m own t m' o -> Q (OVal o) m') ->
  wp (from_str t) Q m.
Proof.
  intros HM Hv HQ. unfold from_str, cond_from_str_inline. rewrite max_inline_16.
  destruct (N.leb_spec (len t) 16) as [Hs|Hb].
  - apply wp_ret. apply HQ. split; [discriminate|]. intros r' E. injection E as <-.
    assert (Hl : (length t <= 16)%nat) by (unfold len in Hs; lia).
    split; [|split; [|split]].
    + apply ctor_ok_nonheap; auto. apply inline_handle_ok; auto.
    + apply inline_new_text; auto.
    + auto.
    + lia.
  - apply heap_new_allocates.
    + intros m' He Hh. apply HQ. split; [intros _; auto|discriminate].
    + intros m' He Hh Hn HlM. apply HQ. split; [discriminate|]. intros r' E. injection E as <-.
      destruct (ctor_ok_fresh HM He Hh Hv (N.le_refl _) HlM) as (S1 & S2 & S3 & S4).
      split; [exact S1|]. split; [exact S2|]. split; [intros Hx; lia|]. auto.
Qed.

Set Implicit Arguments.
Record with_capacity_post (m : mem) (own : bufid -> N) (c : N) (m' : mem) (o : option repr) : Prop := {
  wc_none : o = None -> same_env m m' /\ heap m' = heap m /\ 16 < c;
  wc_some : forall r', o = Some r' ->
            ctor_ok m own m' r' /\ text_of m' r' = [] /\ c <= cap_of m' r' /\ exclusive (heap m') r'
            /\ (c <= 16 -> r' = repr_new /\ heap m' = heap m /\ nreq m' = nreq m)
            /\ (16 < c -> is_heap r' = true /\ cap_of m' r' = c /\ nreq m' = nreq m + 1);
}.
Unset Implicit Arguments.
Lemma with_capacity_wp m own c (Q : out (option repr) -> mem -> Prop) :
  MI (heap m) own ->
  (forall m' o, with_capacity_post m own c m' o -> Q (OVal o) m') ->
  wp (with_capacity c) Q m.
Proof.
  intros HM HQ. unfold with_capacity, cond_with_capacity_inline. rewrite max_inline_16.
  destruct (N.leb_spec c 16) as [Hs|Hb].
  - apply wp_ret. apply HQ. split; [discriminate|]. intros r' E. injection E as <-.
    split; [apply ctor_ok_nonheap; auto; apply repr_new_ok|].
    split; [apply repr_new_text|]. split; [cbn [cap_of repr_new]; rewrite max_inline_16; exact Hs|].
    split; [exact I|]. split; [auto|intros Hx; lia].
  - apply heap_with_capacity_allocates.
    + intros m' He Hh. apply HQ. split; [intros _; auto|discriminate].
    + intros m' He Hh Hn Hc. apply HQ. split; [discriminate|]. intros r' E. injection E as <-.
      destruct (ctor_ok_fresh HM He Hh valid_nil ltac:(rewrite len_nil; lia) Hc) as (S1 & S2 & S3 & S4).
      split; [exact S1|]. split; [exact S2|]. split; [rewrite S3; lia|]. split; [exact S4|].
      split; [intros Hx; lia|]. auto.
Qed.

Set Implicit Arguments.
Record from_static_post (m : mem) (own : bufid -> N) (s : sid) (t : list N) (m' : mem) (res : res repr) : Prop := {
  st_same : same_env m m' /\ heap m' = heap m /\ nreq m' = nreq m;
  st_err : res <> RErr;
  st_panic : forall p, res = RPanic p -> p = PTooLong /\ STATIC_MAX_LENGTH < len t;
  st_ok : forall r', res = ROk r' ->
          ctor_ok m own m' r' /\ text_of m' r' = t /\ is_heap r' = false
          /\ (16 < len t -> r' = Static s (len t));
}.
Unset Implicit Arguments.
Lemma from_static_str_wp m own s t (Q : out (res repr) -> mem -> Prop) :
  MI (heap m) own -> nth_error (statics m) s = Some t -> Valid t ->
  (forall m' res, from_static_post m own s t m' res -> Q (OVal res) m') ->
  wp (from_static_str s (len t)) Q m.
Proof.
  intros HM Hs Hv HQ. unfold from_static_str, cond_from_static_inline, cond_static_too_long. rewrite max_inline_16.
  destruct (N.leb_spec (len t) 16) as [Hsm|Hbg].
  - apply wp_seq. eapply read_static_wp; [exact Hs|lia|]. intros m' (He & Hh & Hn). apply wp_ret.
    rewrite slice_0. rewrite len_to_nat, firstn_all.
    assert (Hl : (length t <= 16)%nat) by (unfold len in Hsm; lia).
    apply HQ. split; auto; try discriminate.
    intros r' E. injection E as <-. split; [|split; [|split]].
    + apply ctor_ok_nonheap; auto. apply inline_handle_ok; auto.
    + apply inline_new_text; auto.
    + reflexivity.
    + lia.
  - destruct (N.ltb_spec STATIC_MAX_LENGTH (len t)) as [Hbig|Hok].
    + apply wp_ret. apply HQ. split; auto; try discriminate.
      intros p E. injection E as <-. auto.
    + apply wp_ret. apply HQ. split; auto; try discriminate.
      intros r' E. injection E as <-. split; [|split; [|split]].
      * apply ctor_ok_nonheap; auto. exists t. rewrite len_to_nat, firstn_all. repeat split; auto; lia.
      * cbn [text_of]. rewrite Hs. rewrite len_to_nat. apply firstn_all.
      * reflexivity.
      * reflexivity.
Qed.

Definition bumped (x : buf) : buf :=
  {| live := true; asize := asize x; count := count x + 1; cap := cap x; data := data x |}.
Set Implicit Arguments.
Record clone_post (m : mem) (own : bufid -> N) (r : repr) (m' : mem) (r' : repr) : Prop := {
  cn_same : r' = r;
  cn_ctor : ctor_ok m own m' r;
  cn_nreq : nreq m' = nreq m;
  cn_text : text_of m' r = text_of m r;
  cn_heap : match r with
            | Heap b _ => exists x, nth_error (heap m) b = Some x /\ heap m' = upd (heap m) b (bumped x)
            | _ => heap m' = heap m
            end;
}.
Unset Implicit Arguments.
Lemma clone_wp m own r (Q : out repr -> mem -> Prop) :
  MI (heap m) own -> handle_ok (heap m) (statics m) r ->
  (forall m' r', clone_post m own r m' r' -> Q (OVal r') m') ->
  wp (make_shallow_clone r) Q m.
Proof.
  intros HM Hr HQ. destruct r as [bs|b l|s l].
  - apply wp_ret. apply HQ. split; auto. apply ctor_ok_nonheap; auto.
  - destruct (heap_handle_inv HM Hr) as (x & Hb & Hl & (W1 & W2 & W3) & Hcx & Hox & Hlc & Hv).
    apply wp_seq. eapply rmw_wp; [exact Hb|exact Hl|]. intros m' He Hn Hh. apply wp_ret.
    assert (Hb' : nth_error (heap m') b = Some (bumped x)).
    { rewrite Hh. apply nth_error_upd_eq. eapply nth_error_lt; eauto. }
    apply HQ. split; auto.
    + split.
      * exact He.
      * rewrite Hh. eapply MI_upd; [exact HM|exact Hb| |].
        -- unfold bumped. unfold buf_wf. cbn [asize cap data count names]. rewrite Nat.eqb_refl. cbn [one].
           repeat split; lia.
        -- intros b' Hne. cbn [names]. apply Nat.eqb_neq in Hne. rewrite Nat.eqb_sym, Hne. cbn [one]. lia.
      * exists (bumped x). unfold bumped. auto.
      * rewrite Hh. apply (frame_upd _ b x); [exact Hb|]. unfold bumped, buf_same. auto.
    + cbn [text_of]. rewrite Hb', Hb. reflexivity.
    + exists x. auto.
  - apply wp_ret. apply HQ. split; auto. apply ctor_ok_nonheap; auto.
Qed.

(* the piece-writing loop (Display pieces; also the body of extend / collect) *)
(* where a callback scheduled to fail at absolute position p stops a loop that starts at position k over n items *)
Definition stop_at (p : option nat) (k n : nat) : option nat :=
  match p with
  | Some q => if Nat.leb k q && Nat.ltb q (k + n) then Some (q - k)%nat else None
  | None => None
  end.
Definition first_stop (ea pa : option nat) (k n : nat) : option (nat * outcome) :=
  match stop_at ea k n, stop_at pa k n with
  | Some a, Some b => if Nat.leb a b then Some (a, ErrFmt) else Some (b, PanicUser)
  | Some a, None => Some (a, ErrFmt)
  | None, Some b => Some (b, PanicUser)
  | None, None => None
  end.

Set Implicit Arguments.
Record pieces_post (ps : list (list N)) (k : nat) (ea pa : option nat) (m : mem) (own : bufid -> N) (r : repr)
       (m' : mem) (r' : repr) (out : outcome) : Prop := {
  pc_step : step_ok m own r m' r';
  pc_done : out <> PanicReserve ->
            match first_stop ea pa k (length ps) with
            | Some (n, o) => out = o /\ text_of m' r' = text_of m r ++ concat (firstn n ps)
            | None => out = OkUnit /\ text_of m' r' = text_of m r ++ concat ps
            end;
  pc_fail : out = PanicReserve -> exists n, (n < length ps)%nat /\ text_of m' r' = text_of m r ++ concat (firstn n ps);
}.
Unset Implicit Arguments.

Lemma stop_at_nil p k : stop_at p k 0 = None.
Proof.
  destruct p as [q|]; [|reflexivity]. unfold stop_at.
  destruct (Nat.leb_spec k q), (Nat.ltb_spec q (k + 0)); try reflexivity; lia.
Qed.
Lemma stop_at_cons p k n :
  stop_at p k (S n) = if eq_opt_nat p k then Some 0%nat else option_map S (stop_at p (S k) n).
Proof.
  destruct p as [q|]; [|reflexivity]. unfold stop_at, eq_opt_nat. destruct (Nat.eqb_spec q k) as [->|Hne].
  - rewrite Nat.leb_refl. replace (Nat.ltb k (k + S n)) with true by (symmetry; apply Nat.ltb_lt; lia).
    cbn [andb]. f_equal. lia.
  - destruct (Nat.leb_spec k q), (Nat.leb_spec (S k) q), (Nat.ltb_spec q (k + S n)), (Nat.ltb_spec q (S k + n));
      cbn [andb option_map]; try reflexivity; try lia. f_equal. lia.
Qed.
Lemma first_stop_cons ea pa k n :
  first_stop ea pa k (S n) =
  if eq_opt_nat ea k then Some (0%nat, ErrFmt)
  else if eq_opt_nat pa k then Some (0%nat, PanicUser)
  else option_map (fun p => (S (fst p), snd p)) (first_stop ea pa (S k) n).
Proof.
  unfold first_stop. rewrite !stop_at_cons.
  destruct (eq_opt_nat ea k), (eq_opt_nat pa k), (stop_at ea (S k) n) as [a|], (stop_at pa (S k) n) as [b|];
    cbn [option_map Nat.leb fst snd]; try reflexivity.
  destruct (Nat.leb a b); reflexivity.
Qed.

Lemma write_pieces_wp ps ea pa : Forall Valid ps -> forall k,
  op_spec (fun r => write_pieces r ps k ea pa) (pieces_post ps k ea pa).
Proof.
  induction ps as [|s rest IH]; intros Hv k m own r Q HM Hr Hc HQ; cbn [write_pieces].
  - apply wp_ret. apply HQ. split; [auto with unchanged| |discriminate].
    unfold first_stop. rewrite !stop_at_nil. rewrite app_nil_r. auto.
  - inversion Hv as [|? ? Hvs Hvr].
    pose proof (first_stop_cons ea pa k (length rest)) as Hfs.
    assert (Hhere : forall o, first_stop ea pa k (length (s :: rest)) = Some (0%nat, o) -> o <> PanicReserve ->
                              wp (Ret (r, o)) Q m).
    { intros o E Ho. apply wp_ret. apply HQ. split; [auto with unchanged| |contradiction].
      rewrite E. rewrite app_nil_r. auto. }
    destruct (eq_opt_nat ea k); [apply Hhere; [exact Hfs|discriminate]|].
    destruct (eq_opt_nat pa k); [apply Hhere; [exact Hfs|discriminate]|].
    apply wp_seq. apply (push_str_wp s Hvs m own r); auto. intros m1 r1 ok P. pose proof (pp_step P) as P1. pose proof (pp_ok P) as P2. pose proof (pp_fail P) as P3.
    destruct ok.
    + destruct (step_pre P1) as (M1 & H1 & C1). apply (IH Hvr (S k) m1 (adj own r r1) r1 _ M1 H1 C1).
      intros m' r' out [R1 R2 R3]. apply HQ. rewrite (P2 eq_refl) in R2, R3. split.
      * eapply step_ok_trans; eauto.
      * intros Hne. specialize (R2 Hne). cbn [length]. rewrite Hfs.
        destruct (first_stop ea pa (S k) (length rest)) as [[n o]|]; cbn [option_map fst snd firstn concat];
          rewrite app_assoc; exact R2.
      * intros E. destruct (R3 E) as (n & Hn & Ht). exists (S n). split; [cbn [length]; lia|].
        cbn [firstn concat]. rewrite Ht, app_assoc. reflexivity.
    + destruct (P3 eq_refl) as (-> & Hh1). apply wp_ret. apply HQ. split; [exact P1|congruence|].
      exists 0%nat. split; [cbn [length]; lia|]. rewrite app_nil_r.
      apply text_of_same; [exact (step_env P1)|exact Hh1].
Qed.
