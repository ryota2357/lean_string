(* Compose.v — well-typed multi-threaded programs over the modelled functions never reach a race, a use after free or a
   double free, and never attempt an access they are not entitled to.

   A thread is a list of steps: a command tree of the model (any composition of the crate's modelled functions),
   spawning a child with k of its handles, joining a child.  The semantics interleaves the threads event by event:
   every event on the shared buffer b0 is one action of the protocol machine conc/Mach.v (so its race / use-after-free /
   double-free detection applies, with C11 release/acquire visibility as modelled there); events on other buffers are
   thread-private and silent.  The values atomics return are whatever the machine holds (any message a stale acquire
   load may still read).  The ghost state of Proto.okc is carried as instrumentation: it never influences a step except
   for the freshness of an allocated buffer id.

   typed_step / typed_steps: the typing invariant WT (machine invariant Inv + every thread's continuation is okc-typed for
   a ghost that agrees with its machine-local state) is preserved by every step; hence (typed_safe) no reachable
   configuration can make a step that the machine reports as an error, and (typed_progress) the head event of every
   started thread can be executed: its thread-local precondition holds. *)
From Coq Require Import Lia Arith List Bool NArith.
From LSConc Require Import Clock Mach Inv Pres Top StepSpec Values Contents.
From LS Require Import Base Cmd Impl Proto.
Import ListNotations.
Local Open Scope nat_scope.

Section Compose.
Variable b0 : bufid.
Variable kof : nat -> nat.     (* the number of handles each spawned thread is given *)
Variable bof : nat -> bool.    (* the thread is a scoped thread that is lent &handle (and given no handle of its own) *)

Definition g_alloc (g : ghost) (b : bufid) : ghost :=
  {| g_refs := setf (g_refs g) b 1%nat; g_excl := setf (g_excl g) b true; g_free := g_free g; g_fen := g_fen g; g_bor := g_bor g |}.
Definition g_dealloc (g : ghost) (b : bufid) : ghost :=
  {| g_refs := g_refs g; g_excl := g_excl g; g_free := setf (g_free g) b false; g_fen := g_fen g; g_bor := g_bor g |}.
Definition g_inc (g : ghost) (b : bufid) : ghost :=
  {| g_refs := setf (g_refs g) b (S (g_refs g b)); g_excl := setf (g_excl g) b false; g_free := g_free g; g_fen := false; g_bor := g_bor g |}.
Definition g_dec (g : ghost) (b : bufid) (v : N) : ghost :=
  {| g_refs := setf (g_refs g) b (g_refs g b - 1)%nat; g_excl := setf (g_excl g) b false;
     g_free := setf (g_free g) b (v =? 1)%N; g_fen := false; g_bor := g_bor g |}.
Definition g_load (g : ghost) (b : bufid) (v : N) : ghost :=
  {| g_refs := g_refs g; g_excl := setf (g_excl g) b (g_excl g b || (v =? 1)%N); g_free := g_free g; g_fen := g_fen g; g_bor := g_bor g |}.
Definition g_fence (g : ghost) (o : ord) : ghost :=
  {| g_refs := g_refs g; g_excl := g_excl g; g_free := g_free g; g_fen := g_fen g || acq o; g_bor := g_bor g |}.
Definition g_give (g : ghost) (k : nat) : ghost :=
  {| g_refs := setf (g_refs g) b0 (g_refs g b0 - k)%nat; g_excl := setf (g_excl g) b0 false; g_free := g_free g; g_fen := g_fen g; g_bor := g_bor g |}.
Definition g_child (k : nat) : ghost :=
  {| g_refs := fun b => if Nat.eqb b b0 then k else 0%nat; g_excl := fun _ => false; g_free := fun _ => false; g_fen := false; g_bor := fun _ => false |}.

(* the ghost of a scoped thread that borrows the handle *)
Definition g_childb : ghost :=
  {| g_refs := fun _ => 0%nat; g_excl := fun _ => false; g_free := fun _ => false; g_fen := false;
     g_bor := fun b => Nat.eqb b b0 |}.
Definition g_init (t : nat) : ghost := if bof t then g_childb else g_child (kof t).
(* lending: the handle that is lent is set aside (one reference fewer to work with) and the lender may itself read and
   clone through it like a borrower; further loans of the same handle change nothing; when the last loan ends the handle
   is the lender's own again *)
Definition g_hide (g : ghost) : ghost :=
  {| g_refs := setf (g_refs g) b0 (g_refs g b0 - 1)%nat; g_excl := setf (g_excl g) b0 false; g_free := g_free g; g_fen := g_fen g;
     g_bor := setf (g_bor g) b0 true |}.
Definition g_unhide (g : ghost) : ghost :=
  {| g_refs := setf (g_refs g) b0 (S (g_refs g b0)); g_excl := g_excl g; g_free := g_free g; g_fen := g_fen g;
     g_bor := setf (g_bor g) b0 false |}.
Definition g_lendout (lent : list nat) (g : ghost) : ghost := match lent with [] => g_hide g | _ => g end.
Definition g_joinb (lent' : list nat) (g : ghost) : ghost := match lent' with [] => g_unhide g | _ => g end.
(* the references a thread's machine state counts beyond its ghost: the lent handle *)
Definition hid (lent : list nat) : nat := match lent with [] => 0 | _ => 1 end.

(* a read of b0: by a reference holder, by the freeing thread after its fence, or through a borrowed handle *)
Definition read_step (s : st) (t : nat) (s' : st) : Prop :=
  step s t ARead = Ok s' \/ step s t AReadM = Ok s' \/ step s t AReadB = Ok s'.

Inductive estep (t : nat) : st -> cmd unit -> ghost -> st -> cmd unit -> ghost -> Prop :=
| S_alloc_none s n k g : estep t s (Alloc n k) g s (k None) g
| S_alloc_some s n k g b : b <> b0 -> g_refs g b = 0%nat -> g_excl g b = false -> g_free g b = false ->
    estep t s (Alloc n k) g s (k (Some b)) (g_alloc g b)
| S_realloc_o s b o n k g ok : b <> b0 -> estep t s (Realloc b o n k) g s (k ok) g
| S_realloc s o n k g ok s' : step s t AWrite = Ok s' -> estep t s (Realloc b0 o n k) g s' (k ok) g
| S_dealloc_o s b n k g : b <> b0 -> estep t s (Dealloc b n k) g s k (g_dealloc g b)
| S_dealloc s n k g s' : step s t AFree = Ok s' -> estep t s (Dealloc b0 n k) g s' k (g_dealloc g b0)
| S_hdrinit_o s b c k g : b <> b0 -> estep t s (HdrInit b c k) g s k g
| S_hdrinit s c k g s' : step s t AWrite = Ok s' -> estep t s (HdrInit b0 c k) g s' k g
| S_hdrcap_o s b k g v : b <> b0 -> estep t s (HdrCap b k) g s (k v) g
| S_hdrcap s k g v s' : read_step s t s' -> estep t s (HdrCap b0 k) g s' (k v) g
| S_inc_o s b o k g v : b <> b0 -> estep t s (Rmw b true o k) g s (k v) (g_inc g b)
| S_inc s o k g s' : step s t AClone = Ok s' ->
    estep t s (Rmw b0 true o k) g s' (k (N.of_nat (val (hdm s)))) (g_inc g b0)
| S_inc_b s o k g s' : step s t ACloneB = Ok s' ->
    estep t s (Rmw b0 true o k) g s' (k (N.of_nat (val (hdm s)))) (g_inc g b0)
| S_dec_o s b o k g v : b <> b0 -> estep t s (Rmw b false o k) g s (k v) (g_dec g b v)
| S_dec s o k g s' : step s t ARelease = Ok s' ->
    estep t s (Rmw b0 false o k) g s' (k (N.of_nat (val (hdm s)))) (g_dec g b0 (N.of_nat (val (hdm s))))
| S_load_o s b o k g v : b <> b0 -> estep t s (Load b o k) g s (k v) (g_load g b v)
| S_load s o k g s' p m : nth_error (msgs s) p = Some m -> step s t (AProbe p) = Ok s' ->
    estep t s (Load b0 o k) g s' (k (N.of_nat (val m))) (g_load g b0 (N.of_nat (val m)))
| S_fence_acq s o k g s' : acq o = true -> step s t AFence = Ok s' -> estep t s (Fence o k) g s' k (g_fence g o)
| S_fence_no s o k g : acq o = false -> estep t s (Fence o k) g s k (g_fence g o)
| S_read_static s sid off n k g bs : estep t s (Read (PStatic sid) off n k) g s (k bs) g
| S_read_o s b off n k g bs : b <> b0 -> estep t s (Read (PHeap b) off n k) g s (k bs) g
| S_read s off n k g bs s' : read_step s t s' -> estep t s (Read (PHeap b0) off n k) g s' (k bs) g
| S_write_o s b off bs k g : b <> b0 -> estep t s (Write (PHeap b) off bs k) g s k g
| S_write s off bs k g s' : step s t AWrite = Ok s' -> estep t s (Write (PHeap b0) off bs k) g s' k g
| S_move_o s b x y n k g : b <> b0 -> estep t s (Move (PHeap b) x y n k) g s k g
| S_move s x y n k g s' : step s t AWrite = Ok s' -> estep t s (Move (PHeap b0) x y n k) g s' k g.

Inductive pitem := POp (c : cmd unit) | PSpawn (child k : nat) | PJoin (child : nat)
                 | PLend (child : nat) | PJoinB (child : nat).   (* thread::scope: lend &handle to a scoped thread, join it *)
Record tcfg := { cur : cmd unit; rest : list pitem; gh : ghost; lt : list nat (* the scoped threads borrowing from this one *) }.
Record cfg := { ms : st; tc : list tcfg }.
Definition dtc : tcfg := {| cur := Ret tt; rest := []; gh := g_child 0; lt := [] |}.
Definition gettc (cf : cfg) (t : nat) : tcfg := nth t (tc cf) dtc.

Definition finished (x : tcfg) : Prop := cur x = Ret tt /\ rest x = [].

Inductive cstep : cfg -> cfg -> Prop :=
| C_event cf t s' c' g' :
    t < length (tc cf) -> started (getth (ms cf) t) = true ->
    estep t (ms cf) (cur (gettc cf t)) (gh (gettc cf t)) s' c' g' ->
    cstep cf {| ms := s'; tc := upd (tc cf) t {| cur := c'; rest := rest (gettc cf t); gh := g'; lt := lt (gettc cf t) |} |}
| C_next cf t c r :
    t < length (tc cf) -> started (getth (ms cf) t) = true ->
    cur (gettc cf t) = Ret tt -> rest (gettc cf t) = POp c :: r ->
    cstep cf {| ms := ms cf; tc := upd (tc cf) t {| cur := c; rest := r; gh := gh (gettc cf t); lt := lt (gettc cf t) |} |}
| C_spawn cf t ch k r s' :
    t < length (tc cf) -> started (getth (ms cf) t) = true ->
    cur (gettc cf t) = Ret tt -> rest (gettc cf t) = PSpawn ch k :: r ->
    step (ms cf) t (ASpawn ch k) = Ok s' ->
    cstep cf {| ms := s'; tc := upd (tc cf) t {| cur := Ret tt; rest := r; gh := g_give (gh (gettc cf t)) k; lt := lt (gettc cf t) |} |}
| C_join cf t ch r s' :
    t < length (tc cf) -> started (getth (ms cf) t) = true ->
    cur (gettc cf t) = Ret tt -> rest (gettc cf t) = PJoin ch :: r ->
    step (ms cf) t (AJoin ch) = Ok s' ->
    cstep cf {| ms := s'; tc := upd (tc cf) t {| cur := Ret tt; rest := r; gh := gh (gettc cf t); lt := lt (gettc cf t) |} |}
| C_lend cf t ch r s' :
    t < length (tc cf) -> started (getth (ms cf) t) = true ->
    cur (gettc cf t) = Ret tt -> rest (gettc cf t) = PLend ch :: r ->
    step (ms cf) t (ALend ch) = Ok s' ->
    cstep cf {| ms := s'; tc := upd (tc cf) t {| cur := Ret tt; rest := r; gh := g_lendout (lt (gettc cf t)) (gh (gettc cf t));
                                                lt := ch :: lt (gettc cf t) |} |}
| C_joinb cf t ch r s' :
    t < length (tc cf) -> started (getth (ms cf) t) = true ->
    cur (gettc cf t) = Ret tt -> rest (gettc cf t) = PJoinB ch :: r ->
    finished (gettc cf ch) ->                  (* the scope waits for the scoped thread to run to completion *)
    step (ms cf) t (AJoinB ch) = Ok s' ->
    cstep cf {| ms := s'; tc := upd (tc cf) t {| cur := Ret tt; rest := r;
                                                gh := g_joinb (List.remove Nat.eq_dec ch (lt (gettc cf t))) (gh (gettc cf t));
                                                lt := List.remove Nat.eq_dec ch (lt (gettc cf t)) |} |}.

Inductive csteps : cfg -> cfg -> Prop :=
| cs_refl cf : csteps cf cf
| cs_step cf cf1 cf2 : cstep cf cf1 -> csteps cf1 cf2 -> csteps cf cf2.

(* [lent]: the scoped threads currently borrowing from this thread; while there are any, the lent handle is set aside:
   the thread works with the ghost [g_hide] leaves it — every other handle it holds, and reading / cloning through the
   lent one — and does not spawn *)
Fixpoint prog_ok (lent : list nat) (ps : list pitem) (g : ghost) : Prop :=
  match ps with
  | [] => lent = [] /\ g_refs g b0 = 0%nat /\ g_free g b0 = false      (* a thread ends holding nothing and owing nothing *)
  | POp c :: r => okc c g (fun _ g' => prog_ok lent r g')
  | PSpawn ch k :: r => (k <= g_refs g b0)%nat /\ kof ch = k /\ bof ch = false /\ prog_ok lent r (g_give g k)
  | PJoin ch :: r => prog_ok lent r g
  | PLend ch :: r => (lent = [] -> (0 < g_refs g b0)%nat /\ g_bor g b0 = false) /\ bof ch = true /\ prog_ok (ch :: lent) r (g_lendout lent g)
  | PJoinB ch :: r => In ch lent /\ prog_ok (List.remove Nat.eq_dec ch lent) r (g_joinb (List.remove Nat.eq_dec ch lent) g)
  end.

Definition agreeh (h : nat) (x : th) (g : ghost) : Prop :=
  refs x = g_refs g b0 + h /\ excl x = g_excl g b0 /\ mustfree x = g_free g b0 /\ (g_fen g = true -> cle (pend x) (clk x)).

Record WT (cf : cfg) : Prop := {
  wt_inv : Inv (ms cf);
  wt_len : length (tc cf) = length (ths (ms cf));
  wt_started : forall t, t < length (tc cf) -> started (getth (ms cf) t) = true ->
      agreeh (hid (lt (gettc cf t))) (getth (ms cf) t) (gh (gettc cf t))
      /\ okc (cur (gettc cf t)) (gh (gettc cf t)) (fun _ g' => prog_ok (lt (gettc cf t)) (rest (gettc cf t)) g')
      /\ (g_bor (gh (gettc cf t)) b0 = true -> lend (getth (ms cf) t) <> 0 \/ lt (gettc cf t) <> [] \/ finished (gettc cf t));
  wt_unstarted : forall t, t < length (tc cf) -> started (getth (ms cf) t) = false ->
      cur (gettc cf t) = Ret tt /\ gh (gettc cf t) = g_init t /\ lt (gettc cf t) = []
      /\ prog_ok [] (rest (gettc cf t)) (g_init t) /\ lend (getth (ms cf) t) = 0;
  (* who borrows from whom: exactly the scoped threads a thread has lent to and not yet joined *)
  wt_loans : forall u t, lend (getth (ms cf) u) = S t <-> (t < length (tc cf) /\ In u (lt (gettc cf t)));
}.

Lemma of_nat_eqb_1 n : (N.of_nat n =? 1)%N = Nat.eqb n 1.
Proof. destruct (Nat.eqb_spec n 1) as [->|H]; [reflexivity|]. apply N.eqb_neq. lia. Qed.

Lemma agreeh_other {h x g} g' :
  agreeh h x g -> same_at g g' b0 -> (g_fen g' = true -> g_fen g = true) -> agreeh h x g'.
Proof. intros (A1 & A2 & A3 & A4) (E1 & E2 & E3) E4. unfold agreeh. rewrite E1, E2, E3. repeat split; auto. Qed.
(* [ghost_fields] computes the fields of an updated ghost; [other_buf] closes the premises of [agreeh_other] for an update
   at a buffer other than b0 (b0's fields are untouched), [at_b0] applies [agreeh_upd] for an update at b0 *)
Ltac ghost_fields :=
  cbn [g_alloc g_dealloc g_inc g_dec g_load g_fence g_give g_hide g_unhide g_child g_childb g_refs g_excl g_free g_fen g_bor].
Ltac other_buf := unfold same_at; ghost_fields; rewrite ?setf_ne by assumption; auto; discriminate.

(* an action of the thread itself: its clock only grows, so a fence stays executed until the next RMW *)
Lemma agreeh_upd {h x g h' x' g'} :
  agreeh h x g -> (g_fen g' = true -> g_fen g = true /\ pend x' = pend x /\ cle (clk x) (clk x')) ->
  refs x' = g_refs g' b0 + h' -> excl x' = g_excl g' b0 -> mustfree x' = g_free g' b0 -> agreeh h' x' g'.
Proof.
  intros (_ & _ & _ & A4) F E1 E2 E3. split; [exact E1|]. split; [exact E2|]. split; [exact E3|].
  intros Hf. destruct (F Hf) as (F1 & -> & F3). eapply cle_trans; [apply A4; exact F1|exact F3].
Qed.
Lemma agree_same_local {h x x' g} : agreeh h x g -> same_local x x' -> agreeh h x' g.
Proof.
  intros Hag (L1 & L2 & L3 & L4 & L5). pose proof Hag as (A1 & A2 & A3 & _).
  apply (agreeh_upd Hag); [auto|congruence..].
Qed.
Ltac at_b0 H := apply (agreeh_upd H); ghost_fields; rewrite ?setf_eq, ?of_nat_eqb_1.

(* each event is silent for the machine or exactly one of its actions, and changes no other thread *)
Lemma estep_mach {t s c g s' c' g'} : estep t s c g s' c' g' -> s' = s \/ exists a, second a = None /\ step s t a = Ok s'.
Proof.
  intros H. destruct H; try (left; reflexivity); right;
    try match goal with Hr : read_step _ _ _ |- _ => destruct Hr as [Hr|[Hr|Hr]] end;
    eexists; (split; [|eassumption]); reflexivity.
Qed.
Lemma estep_frame {t s c g s' c' g'} : Inv s -> started (getth s t) = true -> estep t s c g s' c' g' -> frame t None s s'.
Proof.
  intros I Hst H. destruct (estep_mach H) as [->|(a & Ea & Hs)]; [exact (frame_refl t s I Hst)|].
  rewrite <- Ea. apply frame_step; assumption.
Qed.
(* the continuation is typed: okc's clause for the event, at the value the event returned *)
Lemma estep_okc {t s c g s' c' g'} {Q : unit -> ghost -> Prop} : okc c g Q -> estep t s c g s' c' g' -> okc c' g' Q.
Proof. intros Hok H. destruct H; cbn [okc] in Hok; apply Hok; assumption. Qed.
Lemma estep_bor {t s c g s' c' g'} : estep t s c g s' c' g' -> g_bor g' = g_bor g.
Proof. intros H. destruct H; reflexivity. Qed.

Lemma estep_agree {h t s c g s' c' g'} {Q : unit -> ghost -> Prop} :
  Inv s -> agreeh h (getth s t) g -> okc c g Q -> estep t s c g s' c' g' -> agreeh h (getth s' t) g'.
Proof.
  intros I Hag Hok Hstep. pose proof Hag as (A1 & A2 & A3 & A4).
  pose proof (fun g' => agreeh_other g' Hag) as Hoth.
  assert (Hw : forall s1, step s t AWrite = Ok s1 -> agreeh h (getth s1 t) g).
  { intros s1 H. apply (agree_same_local Hag), (proj2 (frame_step I H)). }
  assert (Hr : forall s1, read_step s t s1 -> agreeh h (getth s1 t) g).
  { intros s1 [H|[H|H]]; apply (agree_same_local Hag), (proj2 (frame_step I H)). }
  (* the ghost is unchanged by the events that allocate nothing, write (Hw) or read (Hr), and changed at another buffer
     by the other events there (Hoth) *)
  destruct Hstep; try exact Hag; try (apply Hw; assumption); try (apply Hr; assumption); try (apply Hoth; other_buf).
  - destruct (frame_step I H) as (_ & Hm & R1 & R2 & R3 & R4 & R5).
    at_b0 Hag; [auto|lia| |exact R3].
    (* the freeing thread holds no reference, so it was not exclusive *)
    rewrite R2. destruct (g_excl g b0) eqn:He; [|reflexivity]. exfalso.
    destruct (J5 s I t A2) as (_ & Hr1 & _). apply (mustfree_no_refs s t t I Hm). rewrite Hr1. lia.
  - destruct (frame_step I H) as (_ & _ & R1 & R2 & R3).
    at_b0 Hag; [discriminate|lia|exact R2|congruence].
  - destruct (frame_step I H) as (_ & R1 & R2 & R3).
    at_b0 Hag; [discriminate|lia|exact R2|congruence].
  - destruct Hok as (K0 & _). destruct (frame_step I H) as (_ & _ & _ & R1 & R2 & R3).
    at_b0 Hag; [discriminate|lia|exact R2|exact R3].
  - destruct (frame_step I H0) as (_ & _ & m' & Hm' & R1 & R2 & R3 & R4 & R5).
    assert (m' = m) as -> by congruence.
    at_b0 Hag; [auto|lia|congruence|congruence].
  - destruct (frame_step I H0) as (_ & R1 & R2 & R3 & R4 & R5 & R6).
    unfold agreeh. rewrite R1, R2, R3, R4. auto.
  - (* weaker fence: nothing *) apply Hoth; [repeat split|]. cbn [g_fence g_fen]. rewrite H, orb_false_r. auto.
Qed.

Lemma gettc_upd_eq cf t x s' : t < length (tc cf) -> gettc {| ms := s'; tc := upd (tc cf) t x |} t = x.
Proof. intros H. apply nth_upd_eq. exact H. Qed.
Lemma gettc_upd_ne cf t u x s' : u <> t -> gettc {| ms := s'; tc := upd (tc cf) t x |} u = gettc cf u.
Proof. intros H. apply nth_upd_ne. exact H. Qed.

(* WT, thread by thread: what it says of thread u, with machine state x and configuration y *)
Definition tok (u : nat) (x : th) (y : tcfg) : Prop :=
  (started x = true ->
     agreeh (hid (lt y)) x (gh y) /\ okc (cur y) (gh y) (fun _ g' => prog_ok (lt y) (rest y) g')
     /\ (g_bor (gh y) b0 = true -> lend x <> 0 \/ lt y <> [] \/ finished y))
  /\ (started x = false ->
        cur y = Ret tt /\ gh y = g_init u /\ lt y = [] /\ prog_ok [] (rest y) (g_init u) /\ lend x = 0).
Lemma WT_tok cf u : WT cf -> u < length (tc cf) -> tok u (getth (ms cf) u) (gettc cf u).
Proof. intros W Hu. split; [apply (wt_started cf W u Hu)|apply (wt_unstarted cf W u Hu)]. Qed.
Definition loans (cf : cfg) : Prop :=
  forall u t, lend (getth (ms cf) u) = S t <-> (t < length (tc cf) /\ In u (lt (gettc cf t))).
Lemma WT_intro cf :
  Inv (ms cf) -> length (tc cf) = length (ths (ms cf)) -> (forall u, u < length (tc cf) -> tok u (getth (ms cf) u) (gettc cf u)) ->
  loans cf -> WT cf.
Proof. intros I Hlen Htok Hl. split; [exact I|exact Hlen|intros t Ht; apply (Htok t Ht)|intros t Ht; apply (Htok t Ht)|exact Hl]. Qed.
Lemma tok_started {u x y} :
  started x = true -> agreeh (hid (lt y)) x (gh y) -> okc (cur y) (gh y) (fun _ g' => prog_ok (lt y) (rest y) g') ->
  (g_bor (gh y) b0 = true -> lend x <> 0 \/ lt y <> [] \/ finished y) -> tok u x y.
Proof. intros Hst H1 H2 H3. split; [auto|congruence]. Qed.

(* a thread starts, with the handles or the loan its initial ghost records *)
Lemma tok_start {u x y c k L} :
  tok u x y -> started x = false -> k = g_refs (g_init u) b0 -> (bof u = true -> L <> 0) -> tok u (fresh_th c k L) y.
Proof.
  intros (_ & H) Hs -> Hb. destruct (H Hs) as (C1 & C2 & C3 & C4 & _).
  apply tok_started; rewrite ?C1, ?C2, ?C3; [reflexivity| |exact C4|].
  - unfold g_init. destruct (bof u); (split; [apply plus_n_O|split; [reflexivity|split; [reflexivity|discriminate]]]).
  - unfold g_init. destruct (bof u); [auto|discriminate].
Qed.

(* thread t moves on, the machine to s': it remains to type t, the second thread the step changes, and the loans *)
Lemma WT_upd {cf s' t c c' r' g' lt'} (y := {| cur := c'; rest := r'; gh := g'; lt := lt' |}) :
  WT cf -> t < length (tc cf) -> frame t c (ms cf) s' ->
  agreeh (hid lt') (getth s' t) g' -> okc c' g' (fun _ g'' => prog_ok lt' r' g'') ->
  (g_bor g' b0 = true -> lend (getth s' t) <> 0 \/ lt' <> [] \/ finished y) ->
  (forall u, c = Some u -> tok u (getth s' u) (gettc cf u)) ->
  loans {| ms := s'; tc := upd (tc cf) t y |} -> WT {| ms := s'; tc := upd (tc cf) t y |}.
Proof.
  intros W Ht (I' & Hlen & Hst' & _ & Hoth) Hag Hok Hbor Hc Hloans.
  apply WT_intro; [| | |exact Hloans]; cbn [ms tc]; rewrite ?upd_length.
  - exact I'.
  - rewrite Hlen. apply (wt_len cf W).
  - intros u Hu. destruct (Nat.eq_dec u t) as [->|Hne]; [rewrite gettc_upd_eq by exact Ht; apply tok_started; assumption|].
    rewrite gettc_upd_ne by exact Hne.
    assert (D : c = Some u \/ c <> Some u) by (destruct c as [ch|]; [destruct (Nat.eq_dec ch u) as [->|]|]; auto; right; congruence).
    destruct D as [D|D]; [exact (Hc u D)|]. rewrite (Hoth u Hne D). exact (WT_tok cf u W Hu).
Qed.

(* the loans are unchanged by a step that changes neither a lend field nor a lent list *)
Lemma loans_same cf s' t x :
  WT cf -> t < length (tc cf) -> (forall u, lend (getth s' u) = lend (getth (ms cf) u)) -> lt x = lt (gettc cf t) ->
  loans {| ms := s'; tc := upd (tc cf) t x |}.
Proof.
  intros W Ht Hl Hx u v. cbn [ms tc]. rewrite upd_length, Hl, (wt_loans cf W u v).
  destruct (Nat.eq_dec v t) as [->|Hne]; [rewrite gettc_upd_eq by exact Ht; rewrite Hx|rewrite gettc_upd_ne by exact Hne]; reflexivity.
Qed.
(* ... and by a step of t that starts or ends the loan of ch: everybody else borrows as before *)
Lemma loans_move cf s' t x ch :
  WT cf -> t < length (tc cf) ->
  (forall u, u <> ch -> lend (getth s' u) = lend (getth (ms cf) u) /\ (In u (lt x) <-> In u (lt (gettc cf t)))) ->
  (forall v, v <> t -> lend (getth s' ch) <> S v /\ lend (getth (ms cf) ch) <> S v) ->
  (lend (getth s' ch) = S t <-> In ch (lt x)) ->
  loans {| ms := s'; tc := upd (tc cf) t x |}.
Proof.
  intros W Ht Hu Hv Hch u v. cbn [ms tc]. rewrite upd_length.
  destruct (Nat.eq_dec v t) as [->|Hne]; [rewrite gettc_upd_eq by exact Ht|rewrite gettc_upd_ne, <- (wt_loans cf W u v) by exact Hne];
    (destruct (Nat.eq_dec u ch) as [->|Hne']; [|destruct (Hu u Hne') as (-> & Hin)]).
  - tauto.
  - rewrite (wt_loans cf W u t). tauto.
  - destruct (Hv v Hne). tauto.
  - reflexivity.
Qed.

(* a thread that is not finished stays covered, as a borrower, by what covered it *)
Lemma bor_kept {y : tcfg} {g' : ghost} {l l' : nat} {lt' : list nat} {F : Prop} :
  (g_bor (gh y) b0 = true -> l <> 0 \/ lt y <> [] \/ finished y) -> ~ finished y ->
  g_bor g' b0 = g_bor (gh y) b0 -> l' = l -> lt' = lt y ->
  g_bor g' b0 = true -> l' <> 0 \/ lt' <> [] \/ F.
Proof. intros H Hn -> -> -> Hb. destruct (H Hb) as [?|[?|?]]; auto; contradiction. Qed.

(* a step of t that changes no other thread and keeps its lent list *)
Lemma WT_self {cf s' t c' r' g'} :
  WT cf -> t < length (tc cf) -> started (getth (ms cf) t) = true -> ~ finished (gettc cf t) -> frame t None (ms cf) s' ->
  agreeh (hid (lt (gettc cf t))) (getth s' t) g' -> okc c' g' (fun _ g'' => prog_ok (lt (gettc cf t)) r' g'') ->
  g_bor g' b0 = g_bor (gh (gettc cf t)) b0 ->
  WT {| ms := s'; tc := upd (tc cf) t {| cur := c'; rest := r'; gh := g'; lt := lt (gettc cf t) |} |}.
Proof.
  intros W Ht Hst Hn Hf Hag Hok Hb. apply (WT_upd W Ht Hf Hag Hok); [|discriminate|].
  - apply (bor_kept (proj2 (proj2 (wt_started cf W t Ht Hst))) Hn Hb); [apply Hf|reflexivity].
  - apply loans_same; [exact W|exact Ht|intros u; apply (frame_lend u Hf); discriminate|reflexivity].
Qed.

(* a thread that lends is not exclusive (J10) *)
Lemma lender_not_excl cf t : WT cf -> t < length (tc cf) -> lt (gettc cf t) <> [] -> excl (getth (ms cf) t) = false.
Proof.
  intros W Ht Hne. destruct (lt (gettc cf t)) as [|u l] eqn:E; [contradiction|].
  apply (J10 _ (wt_inv cf W) u t), (wt_loans cf W u t). rewrite E. split; [exact Ht|left; reflexivity].
Qed.

Theorem typed_step cf cf' : WT cf -> cstep cf cf' -> WT cf'.
Proof.
  intros W Hs. pose proof (wt_inv cf W) as I.
  destruct Hs as [cf t s' c' g' Ht Hst He|cf t c r Ht Hst Hc Hr|cf t ch k r s' Ht Hst Hc Hr Hm|cf t ch r s' Ht Hst Hc Hr Hm
                 |cf t ch r s' Ht Hst Hc Hr Hm|cf t ch r s' Ht Hst Hc Hr Hfin Hm];
    destruct (wt_started cf W t Ht Hst) as (Hag & Hok & Hbor).
  { apply (WT_self W Ht Hst); [|exact (estep_frame I Hst He)|exact (estep_agree I Hag Hok He)|exact (estep_okc Hok He)|].
    - intros (E & _). rewrite E in He. inversion He.
    - rewrite (estep_bor He). reflexivity. }
  all: rewrite Hc, Hr in Hok; cbn [okc prog_ok] in Hok.
  all: assert (Hn : ~ finished (gettc cf t)) by (intros (_ & E); rewrite Hr in E; discriminate).
  - apply (WT_self W Ht Hst Hn (frame_refl t _ I Hst) Hag); [exact Hok|reflexivity].
  - destruct Hok as (Hk & Hkof & Hbof & Hrest).
    destruct (frame_step I Hm) as (Hf & Hct & _ & Hsc & Hcl & R1 & R2 & R3 & R4 & R5 & _). cbn [second] in Hf.
    pose proof (step_other Hm eq_refl) as Ech.
    assert (Hch : ch < length (tc cf)) by (rewrite (wt_len cf W); exact Hcl).
    apply (WT_upd W Ht Hf); [|exact Hrest| | |].
    + pose proof Hag as (A1 & A2 & A3 & _). at_b0 Hag; [auto|lia|exact R2|congruence].
    + apply (bor_kept Hbor Hn); [reflexivity|apply Hf|reflexivity].
    + intros u [= <-]. rewrite Ech. apply (tok_start (WT_tok cf ch W Hch) Hsc); unfold g_init; rewrite Hbof; [|discriminate].
      cbn [g_child g_refs]. rewrite Nat.eqb_refl. symmetry. exact Hkof.
    + apply loans_same; [exact W|exact Ht| |reflexivity]. intros u. destruct (Nat.eq_dec ch u) as [<-|Hu]; [|apply (frame_lend u Hf); congruence].
      rewrite Ech. symmetry. apply (wt_unstarted cf W ch Hch Hsc).
  - destruct (frame_step I Hm) as (Hf & Hsp).
    apply (WT_self W Ht Hst Hn Hf (agree_same_local Hag Hsp)); [exact Hok|reflexivity].
  - destruct Hok as (Hfirst & Hbof & Hrest).
    destruct (frame_step I Hm) as (Hf & R1 & R2 & R3 & R4 & R5). cbn [second] in Hf.
    destruct (step_ready Hm) as (Hct & Hcl & Hsc & _). pose proof (step_other Hm eq_refl) as Ech.
    assert (Hch : ch < length (tc cf)) by (rewrite (wt_len cf W); exact Hcl).
    apply (WT_upd W Ht Hf); [|exact Hrest|intros _; right; left; discriminate| |].
    + pose proof Hag as (A1 & A2 & A3 & _). destruct (lt (gettc cf t)) as [|u0 l0] eqn:Elt; cbn [g_lendout hid] in *.
      * (* the first loan: the lent handle is set aside *)
        destruct (Hfirst eq_refl) as (Hrf & _). at_b0 Hag; [auto|lia|exact R2|congruence].
      * pose proof (lender_not_excl cf t W Ht ltac:(rewrite Elt; discriminate)) as He.
        apply (agreeh_upd Hag); [auto|lia|congruence|congruence].
    + intros u [= <-]. rewrite Ech. apply (tok_start (WT_tok cf ch W Hch) Hsc); [|discriminate].
      unfold g_init. rewrite Hbof. reflexivity.
    + (* ch, which borrowed from nobody, now borrows from t *)
      apply (loans_move cf s' t _ ch W Ht); rewrite ?Ech; cbn [lt lend fresh_th In].
      * intros u Hu. split; [apply (frame_lend u Hf); congruence|]. split; [intros [E|H]; [congruence|exact H]|auto].
      * intros v Hv. rewrite (proj2 (proj2 (proj2 (proj2 (wt_unstarted cf W ch Hch Hsc))))). split; congruence.
      * split; auto.
  - destruct Hok as (Hin & Hrest).
    destruct (frame_step I Hm) as (Hf & Hsp). cbn [second] in Hf.
    destruct (step_ready Hm) as (Hct & Hcl & Hchl & _). pose proof (step_other Hm eq_refl) as Ech.
    assert (Hch : ch < length (tc cf)) by (rewrite (wt_len cf W); exact Hcl).
    assert (Hh : hid (lt (gettc cf t)) = 1) by (destruct (lt (gettc cf t)); [contradiction|reflexivity]).
    rewrite Hh in Hag. pose proof (agree_same_local Hag Hsp) as Hag2.
    apply (WT_upd W Ht Hf); [|exact Hrest| | |].
    + destruct (List.remove Nat.eq_dec ch (lt (gettc cf t))); [|exact Hag2].
      (* the last loan ends: the lent handle is the lender's own again *)
      destruct Hag2 as (A1 & A2 & A3 & A4). unfold agreeh. cbn [g_joinb hid g_unhide g_refs g_excl g_free g_fen]. rewrite setf_eq.
      split; [lia|auto].
    + destruct (List.remove Nat.eq_dec ch (lt (gettc cf t))); [|intros _; right; left; discriminate].
      cbn [g_joinb g_unhide g_bor]. rewrite setf_eq. discriminate.
    + intros u [= <-]. destruct (J10 _ I ch t Hchl) as (Hsch & _).
      destruct (wt_started cf W ch Hch Hsch) as (Hagc & Hokc & _). rewrite Ech.
      apply tok_started; [exact Hsch|exact Hagc|exact Hokc|intros _; right; right; exact Hfin].
    + (* ch no longer borrows *)
      apply (loans_move cf s' t _ ch W Ht); rewrite ?Ech, ?Hchl; cbn [lt lend].
      * intros u Hu. split; [apply (frame_lend u Hf); congruence|].
        split; [intros H; apply in_remove in H; apply H|intros H; apply in_in_remove; auto].
      * intros v Hv. split; congruence.
      * split; [discriminate|]. intros H. apply remove_In in H. contradiction.
Qed.

Theorem typed_steps cf cf' : WT cf -> csteps cf cf' -> WT cf'.
Proof. intros W Hs. induction Hs as [|cf cf1 cf2 H1 _ IH]; [exact W|]. apply IH. eapply typed_step; eauto. Qed.

(* no reachable configuration can take a machine step that is a race, a use after free or a double free — whatever
   thread, whatever action *)
Theorem typed_safe cf cf' t a e : WT cf -> csteps cf cf' -> step (ms cf') t a <> Err e.
Proof. intros W Hs. apply safe. exact (wt_inv _ (typed_steps _ _ W Hs)). Qed.
Theorem typed_reach cf cf' : WT cf -> csteps cf cf' -> WT cf' /\ forall t a e, step (ms cf') t a <> Err e.
Proof. intros W Hs. split; [exact (typed_steps _ _ W Hs)|]. intros t a e. exact (typed_safe _ _ t a e W Hs). Qed.

Lemma noloan_lends_from s t : (forall u, lend (getth s u) = 0) -> lends_from s t = false.
Proof. intros H. apply lends_from_false. intros u. rewrite H. discriminate. Qed.

(* the constructor of estep for the head event applies as soon as its premises are at hand; the value a silent event or
   a read returns is arbitrary *)
Ltac take_step := unshelve (do 3 eexists; econstructor; eassumption); first [exact 0%N|exact true|exact []].

Definition is_event (c : cmd unit) : Prop := match c with Ret _ | Unreachable => False | _ => True end.

Theorem typed_progress cf t :
  WT cf -> t < length (tc cf) -> started (getth (ms cf) t) = true -> is_event (cur (gettc cf t)) ->
  exists s' c' g', estep t (ms cf) (cur (gettc cf t)) (gh (gettc cf t)) s' c' g'.
Proof.
  intros W Ht Hst Hev. destruct (wt_started cf W t Ht Hst) as (Hag & Hok & Hbor). pose proof (wt_inv cf W) as I.
  (* an invariant state never answers Err, so an action whose guard holds is taken *)
  assert (En : forall a, ready (ms cf) t a -> fresh (ms cf) t a = true -> exists s', step (ms cf) t a = Ok s').
  { intros a G F. eexists. apply enabled; [exact I|rewrite <- (wt_len cf W); exact Ht|exact Hst|exact G|exact F]. }
  (* either nobody borrows from t, or t keeps the lent handle (one reference beyond its ghost) and is not exclusive *)
  assert (Hlf : lends_from (ms cf) t = false \/ (hid (lt (gettc cf t)) = 1 /\ excl (getth (ms cf) t) = false)).
  { destruct (lt (gettc cf t)) as [|u0 l0] eqn:E.
    - left. apply lends_from_false. intros u Hu. apply (wt_loans cf W u t) in Hu. rewrite E in Hu. apply Hu.
    - right. split; [reflexivity|]. apply (lender_not_excl cf t W Ht). rewrite E. discriminate. }
  assert (Hbl : g_bor (gh (gettc cf t)) b0 = true -> lend (getth (ms cf) t) <> 0 \/ 0 < hid (lt (gettc cf t))).
  { intros Hb. destruct (Hbor Hb) as [Hl|[Hl|(Hf & _)]]; [left; exact Hl| |rewrite Hf in Hev; contradiction].
    right. destruct (lt (gettc cf t)); [contradiction|cbn; lia]. }
  revert I Hag Hok Hev Hlf Hbl En. generalize (cur (gettc cf t)) (gh (gettc cf t)) (hid (lt (gettc cf t))) (ms cf).
  intros c g h s I (A1 & A2 & A3 & A4) Hok Hev Hlf Hbl En.
  (* a reference of its own lets the thread read, clone, and (if it lends, the lent handle is a second one) release or probe *)
  assert (Hown : 0 < g_refs g b0 -> 0 < refs (getth s t) /\ keeps s t (refs (getth s t) - 1)).
  { intros Hr. split; [lia|]. destruct Hlf as [Hlf|(Hh & _)]; [left; exact Hlf|right; lia]. }
  (* a thread whose ghost is exclusive does not lend *)
  assert (Hw : g_excl g b0 = true -> exists s', step s t AWrite = Ok s').
  { intros He. apply En; [|reflexivity]. split; [congruence|]. destruct Hlf as [Hlf|(_ & Hex)]; [exact Hlf|congruence]. }
  assert (Hrd : can_read g b0 -> exists s', read_step s t s').
  { unfold read_step. intros [Hr|[He|[(Hf & Hfen)|Hb]]].
    - destruct (En ARead) as (s' & E); [apply Hown, Hr|reflexivity|eauto].
    - rewrite <- A2 in He. destruct (J5 s I t He) as (_ & Hr1 & _).
      destruct (En ARead) as (s' & E); [unfold T in Hr1; cbn; lia|reflexivity|eauto].
    - destruct (En AReadM) as (s' & E); [split; [congruence|auto]|reflexivity|eauto].
    - destruct (Hbl Hb) as [Hl|Hh]; [destruct (En AReadB Hl eq_refl) as (s' & E); eauto|].
      (* the lender itself, through the handle it has lent: it still holds it *)
      destruct (En ARead) as (s' & E); [cbn; lia|reflexivity|eauto]. }
  (* an event on another buffer is silent *)
  destruct c as [r| |n k|b o n k|b n k|b c k|b k|b [|] o k|b o k|o k|[b|sid] off n k|[b|sid] off bs k|[b|sid] x y n k];
    cbn [is_event okc] in *; try contradiction; try (destruct (Nat.eq_dec b b0) as [->|Hne]; [|take_step]).
  - take_step.
  - destruct (Hw (proj1 Hok)) as (s' & E). take_step.
  - destruct (En AFree) as (s' & E); [split; [|apply A4]; rewrite ?A3; apply Hok|reflexivity|]. take_step.
  - destruct (Hw (proj1 Hok)) as (s' & E). take_step.
  - destruct (Hrd (proj1 Hok)) as (s' & E). take_step.
  - (* increment: through an own handle, a borrowed one, or the handle the thread has itself lent *)
    destruct Hok as ([Hr|Hb] & _); [|destruct (Hbl Hb) as [Hl|Hh]].
    + destruct (En AClone) as (s' & E); [apply Hown, Hr|reflexivity|]. take_step.
    + destruct (En ACloneB Hl eq_refl) as (s' & E). take_step.
    + destruct (En AClone) as (s' & E); [cbn; lia|reflexivity|]. take_step.
  - destruct Hok as (Hr & Hf & _).
    destruct (En ARelease) as (s' & E); [split; [apply Hown, Hr|]; split; [congruence|apply Hown, Hr]|reflexivity|]. take_step.
  - (* load: the newest message can always be read *)
    destruct (En (AProbe 0)) as (s' & E); [apply Hown, Hok|apply fresh_newest; [exact I|apply Hown, Hok]|].
    destruct (proj2 (frame_step I E)) as (_ & m & Hm & _). take_step.
  - destruct (acq o) eqn:Ha; [destruct (En AFence Logic.I eq_refl) as (s' & E)|]; take_step.
  - destruct (Hrd (proj1 Hok)) as (s' & E). take_step.
  - take_step.
  - destruct (Hw (proj1 Hok)) as (s' & E). take_step.
  - destruct (Hw (proj1 Hok)) as (s' & E). take_step.
Qed.

Theorem all_finished_released cf :
  WT cf -> (forall t, t < length (tc cf) -> started (getth (ms cf) t) = true -> finished (gettc cf t)) ->
  Mach.live (ms cf) = false.
Proof.
  intros W Hfin. pose proof (wt_inv cf W) as I.
  assert (Hall : forall t, refs (getth (ms cf) t) = 0 /\ mustfree (getth (ms cf) t) = false).
  { intros t. destruct (started (getth (ms cf) t)) eqn:Hst; [|destruct (J8 _ I t Hst) as (R0 & M0 & _); auto].
    destruct (Nat.lt_ge_cases t (length (tc cf))) as [Ht|Ht].
    - destruct (wt_started cf W t Ht Hst) as ((A1 & _ & A3 & _) & Hok & _). destruct (Hfin t Ht Hst) as (Hc & Hr).
      rewrite Hc, Hr in Hok. destruct Hok as (L0 & R0 & F0). rewrite L0 in A1. cbn [hid] in A1. split; [lia|congruence].
    - unfold getth in Hst. rewrite nth_overflow in Hst by (rewrite <- (wt_len cf W); exact Ht). discriminate. }
  destruct (Mach.live (ms cf)) eqn:Hl; [exfalso|reflexivity].
  assert (H0 : total (ths (ms cf)) = 0) by (apply total_zero; intros t; apply Hall).
  destruct (J9 _ I Hl H0) as (t & Hm). exact (eq_true_false_abs _ Hm (proj2 (Hall t))).
Qed.

(* Every value an atomic operation on the shared buffer returns to a typed thread — the head of the modification order
   for its RMWs, whichever message its possibly stale acquire load reads — is that thread's own number of references
   plus a non-negative rest.  This is the shape [count x + ext_now m] under which Main.execs_sound_from proves that the
   thread's operations refine Spec for EVERY sequence of rests. *)
Definition own_plus_rest (g : ghost) (c c' : cmd unit) : Prop :=
  match c with
  | Load b o k => b = b0 -> exists v, c' = k v /\ (N.of_nat (g_refs g b0) <= v)%N
  | Rmw b add o k => b = b0 -> exists v, c' = k v /\ (N.of_nat (g_refs g b0) <= v)%N
  | _ => True
  end.
Lemma estep_value_ge_own {h t s c g s' c' g'} :
  Inv s -> agreeh h (getth s t) g -> estep t s c g s' c' g' -> own_plus_rest g c c'.
Proof.
  intros I (A1 & _) Hstep.
  assert (Hrmw : forall a, a = AClone \/ a = ACloneB \/ a = ARelease -> step s t a = Ok s' -> (N.of_nat (g_refs g b0) <= N.of_nat (val (hdm s)))%N).
  { intros a Ha Hs. pose proof (rmw_value_ge_refs s t a s' I Ha Hs). lia. }
  destruct Hstep; cbn [own_plus_rest]; auto; try (intros E; congruence); intros _; eexists; (split; [reflexivity|]).
  - apply (Hrmw AClone); auto.
  - apply (Hrmw ACloneB); auto.
  - apply (Hrmw ARelease); auto.
  - pose proof (probe_value_ge_refs s t p m s' I H0 H). lia.
Qed.
Theorem typed_values_ge_own cf0 cf t s' c' g' :
  WT cf0 -> csteps cf0 cf -> t < length (tc cf) -> started (getth (ms cf) t) = true ->
  estep t (ms cf) (cur (gettc cf t)) (gh (gettc cf t)) s' c' g' ->
  own_plus_rest (gh (gettc cf t)) (cur (gettc cf t)) c'.
Proof.
  intros H0 Hs Ht Hst He. pose proof (typed_steps cf0 cf H0 Hs) as HW.
  exact (estep_value_ge_own (wt_inv cf HW) (proj1 (wt_started cf HW t Ht Hst)) He).
Qed.

(* A typed thread that writes, moves, re-initialises or reallocates the shared buffer does so alone: in every reachable
   configuration where such an event of thread t can happen, no other thread holds a reference, reads through a loan or
   has the duty to free — so (conc/Contents.v) the bytes any thread reads back are those its own writes put there. *)
Definition writes_b0 (c : cmd unit) : Prop :=
  match c with
  | Write (PHeap b) _ _ _ | Move (PHeap b) _ _ _ _ | Realloc b _ _ _ | HdrInit b _ _ => b = b0
  | _ => False
  end.
Lemma estep_write_is_machine_write {t s c g s' c' g'} :
  estep t s c g s' c' g' -> writes_b0 c -> step s t AWrite = Ok s'.
Proof. intros H W. destruct H; cbn [writes_b0] in W; try contradiction; try congruence; assumption. Qed.
Theorem typed_write_is_sole cf0 cf t s' c' g' :
  WT cf0 -> csteps cf0 cf ->
  estep t (ms cf) (cur (gettc cf t)) (gh (gettc cf t)) s' c' g' -> writes_b0 (cur (gettc cf t)) ->
  forall u, u <> t -> ~ Contents.holds (ms cf) u.
Proof.
  intros H0 Hs He Hw. pose proof (typed_steps cf0 cf H0 Hs) as HW.
  exact (write_excludes_all (ms cf) t s' (wt_inv cf HW) (estep_write_is_machine_write He Hw)).
Qed.

(* Each step of the program semantics is silent for the machine or is exactly one of its actions; so every execution
   projects to a machine schedule, and everything proved of ALL schedules (conc/Top.v, conc/Values.v, conc/Contents.v) holds
   of the executions of every program, typed or not. *)
Lemma cstep_mach cf cf' : cstep cf cf' -> ms cf' = ms cf \/ exists t a, step (ms cf) t a = Ok (ms cf').
Proof.
  intros H. destruct H; cbn [ms]; try (left; reflexivity); try (right; eexists _, _; eassumption).
  destruct (estep_mach H1) as [->|(a & _ & Ha)]; [left; reflexivity|right; eexists _, _; exact Ha].
Qed.
Theorem csteps_schedule cf cf' : csteps cf cf' -> exists sched, Mach.run (ms cf) sched = Ok (ms cf').
Proof.
  intros H. induction H as [cf|cf cf1 cf2 H1 _ (sched & IH)]; [exists []; reflexivity|].
  destruct (cstep_mach _ _ H1) as [E|(t & a & E)].
  - exists sched. rewrite <- E. exact IH.
  - exists ((t, a) :: sched). cbn [Mach.run]. rewrite E. exact IH.
Qed.

(* ... in particular of a typed program: along its schedule, whatever a thread that can reach the buffer throughout
   finds written, reallocated or released, it did itself *)
Theorem typed_execution_contents cf0 cf :
  WT cf0 -> csteps cf0 cf ->
  exists sched, Mach.run (ms cf0) sched = Ok (ms cf)
    /\ forall t, held_through (ms cf0) t sched -> Forall (fun ua => (snd ua = AWrite \/ snd ua = AFree) -> fst ua = t) sched.
Proof.
  intros W Hs. destruct (csteps_schedule cf0 cf Hs) as (sched & Hrun). exists sched. split; [exact Hrun|].
  intros t Hh. exact (writes_while_held_are_own t sched (ms cf0) (ms cf) (wt_inv cf0 W) Hrun Hh).
Qed.

(* initial configurations: thread 0 owns the one handle, the others wait to be spawned or lent to.  [gc]: the
   configurations of Programs.v give every waiting thread the same constant ghost, which is [g_init] at the indices
   1..n of the list but not at 0 *)
Lemma WT_init n (p0 : list pitem) (pc : nat -> list pitem) (gc : nat -> ghost) :
  prog_ok [] p0 (g_child 1) -> (forall i, gc (S i) = g_init (S i) /\ prog_ok [] (pc (S i)) (g_init (S i))) ->
  WT {| ms := Mach.init n;
        tc := {| cur := Ret tt; rest := p0; gh := g_child 1; lt := [] |}
              :: map (fun i => {| cur := Ret tt; rest := pc i; gh := gc i; lt := [] |}) (seq 1 n) |}.
Proof.
  intros H0 Hc. set (x0 := {| cur := _; rest := p0; gh := _; lt := _ |}). set (f := fun i => {| cur := _; rest := pc i; gh := _; lt := _ |}).
  assert (Hnth : forall u, u < n -> nth (S u) (x0 :: map f (seq 1 n)) dtc = f (S u)).
  { intros u Hu. cbn [nth]. rewrite (nth_indep _ _ (f 0)) by (rewrite map_length, seq_length; exact Hu).
    rewrite map_nth, seq_nth by exact Hu. reflexivity. }
  pose proof (T_init n : forall u, getth (Mach.init n) u = _) as Ti.
  apply WT_intro; unfold loans, gettc; cbn [ms tc length]; rewrite ?map_length, ?seq_length.
  - apply inv_init.
  - unfold Mach.init. cbn [ths length]. rewrite repeat_length. reflexivity.
  - intros [|u] Hu; [cbn [nth]|rewrite Hnth by lia]; rewrite Ti; cbn [Nat.eqb nth Mach.init ths].
    + apply tok_started; [reflexivity| |exact H0|discriminate].
      unfold agreeh. cbn [x0 gh lt hid g_child g_refs g_excl g_free g_fen refs excl mustfree]. rewrite Nat.eqb_refl. repeat split; auto. discriminate.
    + destruct (Hc u) as (E & Hp). split; [discriminate|]. intros _. cbn [f cur rest gh lt]. auto.
  - intros u v. rewrite Ti. split.
    + destruct u; cbn; discriminate.
    + intros (Hv & Hin). destruct v as [|v]; [contradiction|]. rewrite Hnth in Hin by lia. contradiction.
Qed.

End Compose.
