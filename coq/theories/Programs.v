(* Programs.v — the family of concurrent programs C04 quantifies over, for every number of threads and every operation
   sequence: thread 0 owns a handle to the shared buffer, clones it once per child, moves one clone into each spawned
   thread, and then every thread runs its own arbitrary sequence of reads and mutations on its handle and drops it;
   thread 0 finally joins the children.  shared_handles_typed: the initial configuration is well typed; hence
   (Compose.typed_safe) no reachable configuration can make a racy / use-after-free / double-free step and
   (Compose.typed_progress) every thread's next event is enabled. *)
From Coq Require Import Lia Arith List Bool NArith.
From LSConc Require Import Clock Mach Inv Top StepSpec.
From LS Require Import Base Utf8 Cmd Impl Proto ProtoOps Compose.
Import ListNotations.
Local Open Scope nat_scope.

Inductive hop :=
| HRead | HPush (s : list N) | HPop | HTruncate (n : N) | HRemove (i : N) | HInsert (i : N) (s : list N)
| HRetain (pred : nat -> option bool) | HClear | HShrink (m : N) | HReserve (n : N) | HCloneDrop.

Definition happly (o : hop) (r : repr) : cmd repr :=
  match o with
  | HRead => _ <- as_bytes r ;; Ret r
  | HPush s => p <- push_str r s ;; Ret (fst p)
  | HPop => p <- pop r ;; Ret (fst p)
  | HTruncate n => p <- truncate r n ;; Ret (fst p)
  | HRemove i => p <- remove r i ;; Ret (fst p)
  | HInsert i s => p <- insert_str r i s ;; Ret (fst p)
  | HRetain pr => p <- retain r pr ;; Ret (fst p)
  | HClear => clear r
  | HShrink m => p <- shrink_to r m ;; Ret (fst p)
  | HReserve n => p <- reserve r n ;; Ret (fst p)
  | HCloneDrop => r' <- make_shallow_clone r ;; _ <- replace_inner r' repr_new ;; Ret r
  end.

Lemma ok_happly o r g : holds g r -> settled g -> okc (happly o r) g (post g r).
Proof.
  intros Hh Hs. destruct o; cbn [happly].
  - apply okc_bind, ok_as_bytes; [exact Hh|]. intros t. exact (post_refl Hh Hs).
  - apply okc_bind, ok_push_str; assumption.
  - apply okc_bind, ok_pop; assumption.
  - apply okc_bind, ok_truncate; assumption.
  - apply okc_bind, ok_remove; assumption.
  - apply okc_bind, ok_insert_str; assumption.
  - apply okc_bind, ok_retain; assumption.
  - apply ok_clear; assumption.
  - apply okc_bind, ok_shrink_to; assumption.
  - eapply okc_seq; [apply ok_reserve; assumption|]. intros p g'. exact mu_post_post.
  - (* the clone is dropped again: the counts are back where they were *)
    apply okc_bind, ok_clone_any; [left; exact Hh|]. intros g1 H1 Ef _ Hn.
    apply okc_bind, ok_release; [exact H1|intros b; rewrite Ef; apply Hs|]. intros g2 S2 R2 _.
    assert (Hsame : forall x, g_refs g2 x = g_refs g x) by (intros x; specialize (R2 x); rewrite Hn in R2; lia).
    split; [exact S2|]. split; [|intros x; rewrite Hsame; reflexivity].
    destruct r as [d|b l|s l]; cbn [holds]; auto. split; [rewrite Hsame; apply Hh|apply S2].
Qed.

Fixpoint hrun (ops : list hop) (r : repr) : cmd unit :=
  match ops with
  | [] => _ <- replace_inner r repr_new ;; Ret tt
  | o :: rest => r' <- happly o r ;; hrun rest r'
  end.

Definition idle (b0 : bufid) (g : ghost) : Prop := settled g /\ g_refs g b0 = 0.

(* a thread that holds exactly the handle r (and no other reference to b0) runs any sequence and ends holding nothing *)
Lemma ok_hrun b0 ops : forall r g (Q : unit -> ghost -> Prop),
  holds g r -> settled g -> g_refs g b0 = nm r b0 -> (forall g', idle b0 g' -> Q tt g') -> okc (hrun ops r) g Q.
Proof.
  induction ops as [|o rest IH]; intros r g Q Hh Hs Hex HQ; cbn [hrun].
  - apply okc_bind, ok_release; [exact Hh|exact Hs|]. intros g' S' R' _. apply HQ. split; [exact S'|]. specialize (R' b0). lia.
  - eapply okc_seq; [apply ok_happly; assumption|]. intros r' g' (S' & H' & C'). apply IH; try assumption.
    specialize (C' b0). lia.
Qed.
Lemma ok_hrun1 b0 l0 ops g (Q : unit -> ghost -> Prop) :
  settled g -> g_refs g b0 = 1 -> (forall g', idle b0 g' -> Q tt g') -> okc (hrun ops (Heap b0 l0)) g Q.
Proof.
  intros Hs Hr. apply ok_hrun; [split; [lia|apply Hs]|exact Hs|]. cbn [nm]. rewrite Nat.eqb_refl. exact Hr.
Qed.

Fixpoint clone_n (n : nat) (r : repr) : cmd unit :=
  match n with 0 => Ret tt | S k => _ <- make_shallow_clone r ;; clone_n k r end.

Lemma ok_clone_n b0 l0 k : forall g (Q : unit -> ghost -> Prop),
  holds g (Heap b0 l0) -> settled g ->
  (forall g', settled g' -> g_bor g' = g_bor g -> g_refs g' b0 = g_refs g b0 + k -> Q tt g') -> okc (clone_n k (Heap b0 l0)) g Q.
Proof.
  induction k as [|k IH]; intros g Q Hh Hs HQ; cbn [clone_n]; [apply HQ; auto|].
  apply okc_bind, ok_clone_any; [left; exact Hh|]. intros g1 H1 Ef Eb Hn.
  apply IH; [exact H1|intros b; rewrite Ef; apply Hs|]. intros g' S' Eb' E. apply HQ; [exact S'|congruence|].
  rewrite E, Hn. cbn [nm]. rewrite Nat.eqb_refl. lia.
Qed.

Lemma idle_done b0 kof bof g : idle b0 g -> prog_ok b0 kof bof [] [] g.
Proof. intros (Hs & Hr). cbn. auto. Qed.

(* thread 0 starts with the one handle *)
Lemma owner_ghost_ok b0 l0 : holds (g_child b0 1) (Heap b0 l0) /\ settled (g_child b0 1) /\ g_refs (g_child b0 1) b0 = 1.
Proof. cbn [holds g_child g_refs g_free]. rewrite Nat.eqb_refl. split; [split; [lia|reflexivity]|]. split; [intros b|]; reflexivity. Qed.

Section System.
Variable b0 : bufid.
Variable l0 : N.
Variable n : nat.                       (* number of child threads *)
Variable opsf : nat -> list hop.        (* what each thread does with its handle *)
Let r0 := Heap b0 l0.
Let kof := fun _ : nat => 1.
Let bof := fun _ : nat => false.

Definition prog0 : list pitem :=
  POp (clone_n n r0) :: map (fun i => PSpawn i 1) (seq 1 n) ++ POp (hrun (opsf 0) r0) :: map PJoin (seq 1 n).
Definition child_prog (i : nat) : list pitem := [POp (hrun (opsf i) r0)].
Definition tc0 : list tcfg :=
  {| cur := Ret tt; rest := prog0; gh := g_child b0 1; lt := [] |}
  :: map (fun i => {| cur := Ret tt; rest := child_prog i; gh := g_child b0 1; lt := [] |}) (seq 1 n).
Definition cfg0 : cfg := {| ms := Mach.init n; tc := tc0 |}.

Lemma prog_ok_joins l g : idle b0 g -> prog_ok b0 kof bof [] (map PJoin l) g.
Proof. intros H. induction l; [apply idle_done, H|exact IHl]. Qed.

Lemma prog_ok_spawns l : forall g rest c,
  settled g -> g_refs g b0 = length l + c ->
  (forall g', settled g' -> g_refs g' b0 = c -> prog_ok b0 kof bof [] rest g') ->
  prog_ok b0 kof bof [] (map (fun i => PSpawn i 1) l ++ rest) g.
Proof.
  induction l as [|i l IH]; intros g rest c Hs Hr HQ; cbn [map app prog_ok length] in *; [apply HQ; auto|].
  split; [lia|]. split; [reflexivity|]. split; [reflexivity|]. apply (IH _ _ c); [exact Hs| |exact HQ].
  cbn [g_give g_refs]. rewrite setf_eq. lia.
Qed.

Lemma prog0_ok : prog_ok b0 kof bof [] prog0 (g_child b0 1).
Proof.
  destruct (owner_ghost_ok b0 l0) as (Hh & Hs & Hr). unfold prog0. cbn [prog_ok].
  apply ok_clone_n; [exact Hh|exact Hs|]. intros g1 S1 _ E1.
  apply (prog_ok_spawns _ _ _ 1); [exact S1|rewrite seq_length, E1, Hr; lia|].
  intros g2 S2 R2. cbn [prog_ok]. apply ok_hrun1; [exact S2|exact R2|]. apply prog_ok_joins.
Qed.

Theorem shared_handles_typed : WT b0 kof bof cfg0.
Proof.
  apply (WT_init b0 kof bof n prog0 child_prog (fun _ => g_child b0 1) prog0_ok). intros i. split; [reflexivity|].
  destruct (owner_ghost_ok b0 l0) as (_ & Hs & Hr). apply ok_hrun1; [exact Hs|exact Hr|]. apply (idle_done b0 kof bof).
Qed.
End System.

(* Sharing by reference: std::thread::scope.
   Thread 0 owns a handle to the shared buffer and lends &handle to n scoped threads (for every n); each scoped thread
   runs its own arbitrary sequence of reads THROUGH the borrowed handle and clones through it — every clone is then the
   scoped thread's own handle, on which it runs any sequence of reads and mutations before dropping it — and the scope
   ends when all of them have run to completion; afterwards thread 0 runs its own arbitrary sequence on the handle and
   drops it.  scoped_handles_typed: the initial configuration is well typed, hence all of Compose's theorems apply. *)
Inductive bop := BRead | BClone (ops : list hop).
Definition bapply (o : bop) (r : repr) : cmd unit :=
  match o with
  | BRead => _ <- as_bytes r ;; Ret tt
  | BClone ops => r' <- make_shallow_clone r ;; hrun ops r'
  end.
Fixpoint brun (ops : list bop) (r : repr) : cmd unit :=
  match ops with
  | [] => Ret tt
  | o :: rest => _ <- bapply o r ;; brun rest r
  end.

Lemma ok_brun b0 l0 ops : forall g (Q : unit -> ghost -> Prop),
  g_bor g b0 = true -> idle b0 g -> (forall g', idle b0 g' -> Q tt g') -> okc (brun ops (Heap b0 l0)) g Q.
Proof.
  induction ops as [|o rest IH]; intros g Q Hb (Hs & Hr) HQ; cbn [brun]; [apply HQ; split; assumption|].
  assert (Hbw : borrows g (Heap b0 l0)) by (split; [exact Hb|apply Hs]).
  apply okc_bind. destruct o as [|ops]; cbn [bapply].
  - apply okc_bind, ok_as_bytes_borrowed; [exact Hbw|]. intros t. apply IH; [exact Hb|split; assumption|exact HQ].
  - apply okc_bind, ok_clone_any; [right; exact Hbw|]. intros g1 H1 Ef Eb Hn.
    eapply okc_mono; [apply (ok_hrun1 b0 l0 ops g1 (fun _ => idle b0)); [intros b; rewrite Ef; apply Hs| |auto]|].
    + rewrite Hn, Hr. cbn [nm]. rewrite Nat.eqb_refl. reflexivity.
    + intros u g2 Eb2 Hi. apply IH; [congruence|exact Hi|exact HQ].
Qed.

Section Scoped.
Variable b0 : bufid.
Variable l0 : N.
Variable n : nat.                       (* S n scoped threads *)
Variable bopsf : nat -> list bop.       (* what each scoped thread does through the borrowed handle *)
Variable ops1 : list hop.               (* what the owner does with its OTHER handle while the scope is open *)
Variable lops : list bop.               (* what the owner does through the handle it has lent, while the scope is open *)
Variable ops0 : list hop.               (* what the owner does with its handle after the scope *)
Let r0 := Heap b0 l0.
Let kof := fun _ : nat => 0.
Let bof := fun t : nat => negb (Nat.eqb t 0).

(* the owner holds two handles on the buffer; it lends one of them to S n scoped threads and, while they run, goes on
   editing and finally drops the other one, and reads and clones through the lent one like any borrower; when the scope
   has ended it edits the handle it had lent *)
Definition sprog0 : list pitem :=
  POp (clone_n 1 r0) :: map PLend (seq 1 (S n)) ++ [POp (hrun ops1 r0); POp (brun lops r0)] ++ map PJoinB (rev (seq 1 (S n)))
  ++ [POp (hrun ops0 r0)].
Definition schild_prog (i : nat) : list pitem := [POp (brun (bopsf i) r0)].
Definition stc0 : list tcfg :=
  {| cur := Ret tt; rest := sprog0; gh := g_child b0 1; lt := [] |}
  :: map (fun i => {| cur := Ret tt; rest := schild_prog i; gh := g_childb b0; lt := [] |}) (seq 1 (S n)).
Definition scfg0 : cfg := {| ms := Mach.init (S n); tc := stc0 |}.

Lemma remove_head_notin (a : nat) l : ~ In a l -> List.remove Nat.eq_dec a (a :: l) = l.
Proof.
  intros H. cbn [List.remove]. destruct (Nat.eq_dec a a) as [_|Hne]; [|contradiction]. apply notin_remove. exact H.
Qed.

(* a scope: loans to the threads of l, what the lender does meanwhile, and the joins in reverse order.  The first loan
   of a handle sets it aside ([g_lendout]) and the end of the last one gives it back ([g_joinb]); further loans of a
   handle that is already lent, and their ends, leave the ghost alone *)
Lemma prog_ok_scope l : forall lent g (Pout : ghost -> Prop) mid rest,
  NoDup l -> (forall i, In i l -> bof i = true /\ ~ In i lent) ->
  (lent = [] -> l <> [] -> 0 < g_refs g b0 /\ g_bor g b0 = false) ->
  (forall lent' r', (forall g'', Pout g'' -> prog_ok b0 kof bof lent' r' g'') ->
                    prog_ok b0 kof bof lent' (mid ++ r') (match l with [] => g | _ => g_lendout b0 lent g end)) ->
  (forall g'', Pout g'' -> prog_ok b0 kof bof lent rest (match l with [] => g'' | _ => g_joinb b0 lent g'' end)) ->
  prog_ok b0 kof bof lent (map PLend l ++ mid ++ map PJoinB (rev l) ++ rest) g.
Proof.
  induction l as [|a l IH]; intros lent g Pout mid rest Hnd Hl Hfirst Hmid HQ; [apply Hmid, HQ|].
  cbn [map rev app prog_ok]. inversion Hnd as [|? ? Hna Hnd']; subst. destruct (Hl a (or_introl eq_refl)) as (Hb & Hnl).
  split; [intros E; apply Hfirst; [exact E|discriminate]|]. split; [exact Hb|].
  rewrite map_app, <- app_assoc. apply (IH (a :: lent) _ Pout mid (PJoinB a :: rest)); [exact Hnd'| |discriminate| |].
  - intros i Hi. destruct (Hl i (or_intror Hi)) as (Hbi & Hni). split; [exact Hbi|]. intros [<-|Hin]; contradiction.
  - destruct l; exact Hmid.
  - intros g'' Hg''. cbn [prog_ok]. split; [left; reflexivity|]. rewrite remove_head_notin by exact Hnl.
    destruct l; apply HQ, Hg''.
Qed.

Lemma sprog0_ok : prog_ok b0 kof bof [] sprog0 (g_child b0 1).
Proof.
  destruct (owner_ghost_ok b0 l0) as (Hh & Hs & Hr). unfold sprog0. cbn [prog_ok].
  apply ok_clone_n; [exact Hh|exact Hs|]. intros g1 S1 B1 R1. rewrite Hr in R1.
  apply (prog_ok_scope (seq 1 (S n)) [] g1 (idle b0) [POp (hrun ops1 r0); POp (brun lops r0)]).
  - apply seq_NoDup.
  - intros i Hi. apply in_seq in Hi. split; [destruct i; [lia|reflexivity]|intros []].
  - intros _ _. rewrite B1. split; [lia|reflexivity].
  - (* while the scope is open: one handle to work with, the lent one to read and clone through *)
    intros lent' r' HQ. cbn [seq app prog_ok g_lendout].
    eapply okc_mono; [apply (ok_hrun1 b0 l0 ops1 _ (fun _ => idle b0)); [exact S1|cbn [g_hide g_refs]; rewrite setf_eq; lia|auto]|].
    intros u g2 B2 Hi. cbn [prog_ok]. apply ok_brun; [rewrite B2; apply setf_eq|exact Hi|exact HQ].
  - (* after the scope: the handle that was lent *)
    intros g'' (S'' & R''). cbn [seq prog_ok g_joinb]. apply ok_hrun1; [exact S''|cbn [g_unhide g_refs]; rewrite setf_eq; lia|].
    apply (idle_done b0 kof bof).
Qed.

Theorem scoped_handles_typed : WT b0 kof bof scfg0.
Proof.
  apply (WT_init b0 kof bof (S n) sprog0 schild_prog (fun _ => g_childb b0) sprog0_ok). intros i. split; [reflexivity|].
  apply ok_brun; [apply Nat.eqb_refl|split; [intros b|]; reflexivity|]. apply (idle_done b0 kof bof).
Qed.
End Scoped.
