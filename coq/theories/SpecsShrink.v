From LS Require Import Base Utf8Facts Cmd Impl Wp Inv InlineFacts Exec Specs Specs2.
From LSGen Require Import GenSrc.
Open Scope N_scope.

Record shrink_post (m : mem) (own : bufid -> N) (r : repr) (minc : N) (m' : mem) (r' : repr) (ok : bool) : Prop := {
  sh_step : step_ok m own r m' r';
  sh_text : text_of m' r' = text_of m r;
  sh_fail : ok = false -> r' = r /\ heap m' = heap m;
  sh_nonheap : is_heap r = false -> ok = true /\ r' = r /\ heap m' = heap m /\ nreq m' = nreq m;
  sh_heap : is_heap r = true -> ok = true ->
            let nc := N.max (repr_len r) minc in
            (nc <= 16 -> is_heap r' = false /\ is_static r' = false /\ nreq m' = nreq m)
            /\ (16 < nc -> cap_of m r <= nc -> r' = r /\ heap m' = heap m /\ nreq m' = nreq m)
            /\ (16 < nc -> nc < cap_of m r -> is_heap r' = true /\ cap_of m' r' = nc /\ exclusive (heap m') r' /\ nreq m' = nreq m + 1);
  sh_cap : ok = true -> repr_len r <= cap_of m' r' /\ cap_of m' r' <= N.max (cap_of m r) 16;
}.
Lemma shrink_text {m own r minc m' r' ok} : shrink_post m own r minc m' r' ok -> text_of m' r' = text_of m r.
Proof. intros [_ T _ _ _ _]. exact T. Qed.

Section ShrinkPosts.
  Variables (m : mem) (own : bufid -> N) (r : repr) (minc : N).
  Hypothesis HM : MI (heap m) own.
  Hypothesis Hr : handle_ok (heap m) (statics m) r.
  Hypothesis Hc : counted own r.

  (* nothing to give back: not a heap handle, or a buffer already no larger than what was asked for *)
  Lemma shrink_post_noop m' :
    read_only m m' ->
    (is_heap r = true -> 16 < N.max (repr_len r) minc /\ cap_of m r <= N.max (repr_len r) minc) ->
    shrink_post m own r minc m' r true.
  Proof.
    intros (He & Hh & Hn) Hk. pose proof (repr_len_le_cap m r Hr) as Hlc. split; auto with unchanged.
    - intros E _. destruct (Hk E) as [Hbig Hle]. cbv zeta. split; [|split].
      + intros Hs%N.le_ngt. contradiction.
      + auto.
      + intros _ Hs%N.lt_nge. contradiction.
    - rewrite (cap_of_same m m' r Hh). clear - Hlc. lia.
  Qed.
  Lemma shrink_post_fail m' :
    same_env m m' -> heap m' = heap m -> is_heap r = true -> shrink_post m own r minc m' r false.
  Proof.
    split; try congruence; auto with unchanged.
  Qed.
  Lemma shrink_post_rehoused m' r' :
    rehoused m own r (N.max (repr_len r) minc) m' r' -> is_heap r = true ->
    16 < N.max (repr_len r) minc -> N.max (repr_len r) minc < cap_of m r ->
    shrink_post m own r minc m' r' true.
  Proof.
    intros [S T L X C H N M] E Hbig Hshr. split; try congruence.
    - intros _ _. cbv zeta. split; [|split].
      + intros Hs%N.le_ngt. contradiction.
      + intros _ Hs%N.le_ngt. contradiction.
      + auto.
    - rewrite C. clear - L Hbig Hshr. lia.
  Qed.
End ShrinkPosts.

Lemma shrink_to_wp minc : op_spec (fun r => shrink_to r minc) (fun m own r => shrink_post m own r minc).
Proof.
  intros m own r Q HM Hr Hc HQ. unfold shrink_to.
  destruct r as [bs|b l|s l]; try (apply wp_ret; apply HQ; apply shrink_post_noop; auto; discriminate).
  pose proof (repr_len_le_cap m _ Hr) as Hlc.
  unfold expr_shrink_new_capacity, cond_shrink_inline, cond_shrink_noop. rewrite max_inline_16.
  set (nc := N.max l minc). assert (Hlnc : l <= nc) by (unfold nc; lia).
  apply wp_seq. eapply handle_hdr_cap_wp; eauto.
  destruct (N.leb_spec nc 16) as [Hsmall|Hbig].
  - apply wp_seq. apply (as_bytes_wp m (Heap b l) m); auto. intros m1 Hro1.
    apply wp_seq. eapply (replace_inner_wp m own (Heap b l)); eauto. intros m2 He Hh Hn. apply wp_ret.
    destruct (inline_step_ok HM Hr Hc m2) as (S1 & S2 & S3); auto; [cbn [repr_len]; lia|].
    apply HQ. split; auto; try discriminate.
    + intros _ _. cbn [repr_len]. fold nc. split; [auto|split]; intros Hs%N.lt_nge; contradiction.
    + intros _. cbn [repr_len cap_of]. rewrite max_inline_16. clear - Hlnc Hsmall. lia.
  - destruct (N.leb_spec (cap_of m (Heap b l)) nc) as [Hnoop|Hshr].
    + apply wp_ret. apply HQ. apply shrink_post_noop; auto.
    + apply wp_seq. eapply heap_unique_wp; eauto. intros m1 [|] Hro1 Hu Hnu.
      * apply wp_seq. eapply handle_realloc_wp; eauto.
        -- intros m2 He Hh. apply wp_ret. apply HQ. apply shrink_post_fail; auto.
        -- intros m2 Hre. apply wp_ret. apply HQ. apply shrink_post_rehoused; auto.
      * apply wp_seq. apply (as_bytes_wp m (Heap b l) m1); [exact Hr|exact Hro1|]. intros m2 Hro2.
        apply (copy_out_wp HM Hr Hc _ nc); auto.
        -- apply heap_with_exact_capacity_allocates. rewrite (text_len m _ Hr). exact Hlnc.
        -- intros m3 He Hh. apply HQ. apply shrink_post_fail; auto.
        -- intros m3 r3 Hre. apply HQ. apply shrink_post_rehoused; auto.
Qed.

Set Implicit Arguments.
Record clear_post (m : mem) (own : bufid -> N) (r : repr) (m' : mem) (r' : repr) : Prop := {
  cl_step : step_ok m own r m' r';
  cl_text : text_of m' r' = [];
  cl_nreq : nreq m' = nreq m;
  cl_static : is_static r = true -> r' = with_len r 0 /\ heap m' = heap m;
  cl_excl : xcl m r -> r' = with_len r 0 /\ heap m' = heap m;
}.
Unset Implicit Arguments.

Lemma clear_wp m own r (Q : out repr -> mem -> Prop) :
  MI (heap m) own -> handle_ok (heap m) (statics m) r -> counted own r ->
  (forall m' r', clear_post m own r m' r' -> Q (OVal r') m') ->
  wp (clear r) Q m.
Proof.
  intros HM Hr Hc HQ.
  assert (H0M : 0 <= MAX_LEN) by (unfold MAX_LEN; lia).
  (* a handle that holds no buffer, or holds its buffer alone, keeps it *)
  assert (Hlocal : forall m1, read_only m m1 -> wp (set_len r 0) Q m1).
  { intros m1 (He & Hh & Hn). apply set_len_wp; [exact H0M|]. apply HQ.
    destruct (with_len_step 0 m1 HM Hr Hc) as (S1 & S2); auto; [lia|apply valid_nil|]. split; auto. }
  unfold clear. destruct r as [bs|b l|s l]; try (apply Hlocal; auto).
  apply wp_seq. eapply heap_unique_wp; eauto. intros m1 [|] Hro1 Hu Hnu; [apply Hlocal; exact Hro1|].
  eapply (replace_inner_wp m own (Heap b l)); eauto. intros m2 He Hh Hn. apply HQ. split; auto; try discriminate.
  - apply release_step; auto. apply repr_new_ok.
  - intros Hx. destruct (Hnu eq_refl Hx).
Qed.

Print Assumptions shrink_to_wp.
Print Assumptions clear_wp.
