(* Main.v — the operation-level theorem: every operation preserves WF, never reaches UB, leaves every other
   slot alone, and refines Spec unless it reports an allocation failure. *)
From Coq Require Import Lia ZArith.
From LS Require Import Base Utf8 Utf8Spec Utf8Facts Cmd Impl Wp ListFacts Inv NumModel Exec Specs Specs2 Specs3 WF Spec Refine.
From LSGen Require Import GenSrc.
Open Scope N_scope.

Definition int_range (t : int_ty) : Z * Z :=
  match t with
  | TI8 => (-128, 127) | TU8 => (0, 255) | TI16 => (-32768, 32767) | TU16 => (0, 65535)
  | TI32 => (-2147483648, 2147483647) | TU32 => (0, 4294967295)
  | TI64 | TIsize => (-9223372036854775808, 9223372036854775807)
  | TU64 | TUsize => (0, 18446744073709551615)
  end%Z.
(* the generated integer tables and LUT satisfy their side conditions (discharged by vm_compute in props/) *)
Definition gen_ok : Prop :=
  lut_ok dec_digits_lut = true /\ forall t, check_table (table_of t) (fst (int_range t)) (snd (int_range t)) = true.

(* arguments are what the Rust types guarantee: &str is valid UTF-8, char is a scalar value, integers are in range *)
Definition scalars (cs : list N) : Prop := Forall (fun c => is_scalar c = true) cs.
Definition op_wf (st : list (list N)) (o : op) : Prop :=
  match o with
  | OFromStr _ t => Valid t
  | OFromStatic s => exists t, nth_error st s = Some t
  | OFromChar c | OPush _ _ c | OInsert _ _ _ c => is_scalar c = true
  | OFromInt _ t z => (fst (int_range t) <= z <= snd (int_range t))%Z
  | OCollectChars _ _ cs | OExtendChars _ _ _ cs => scalars cs
  | OCollectStrs _ ss | OExtendStrs _ _ ss => Forall Valid ss
  | ODisplay _ _ _ ps | OWriteFmt _ _ _ ps => Forall Valid ps
  | OPushStr _ _ s | OAdd _ s | OInsertStr _ _ _ s => Valid s
  | _ => True
  end.

Definition target (o : op) : option nat :=
  match o with
  | OCloneFrom i _ | ODrop i | OPush _ i _ | OPushStr _ i _ | OAdd i _ | OPop _ i | ORemove _ i _ | OInsert _ i _ _
  | OInsertStr _ i _ _ | OTruncate _ i _ | OClear i | ORetain _ i _ _ | OReserve _ i _ | OShrinkTo _ i _
  | OExtendChars i _ _ _ | OExtendStrs i _ _ | OWriteFmt i _ _ _ => Some i
  | _ => None
  end.

Record exec_post (w : world) (o : op) (w' : world) (out : outcome) : Prop := {
  ep_wf : WF w';
  ep_noub : forall u, out <> UbOut u;
  ep_statics : statics (wmem w') = statics (wmem w);
  ep_refine : alloc_failure out = false -> (abs w', out) = spec_exec (statics (wmem w)) (abs w) o;
  ep_frame : forall j rj, target o <> Some j -> nth_error (pool w) j = Some (Some rj) ->
             nth_error (pool w') j = Some (Some rj)
             /\ text_of (wmem w') rj = text_of (wmem w) rj /\ cap_of (wmem w') rj = cap_of (wmem w) rj;
}.

Lemma skip_post w o : WF w -> spec_exec (statics (wmem w)) (abs w) o = (abs w, Skip) -> exec_post w o w Skip.
Proof. intros HW E. split; auto; discriminate. Qed.
Lemma set_slot_post {w} o i {m' s out} :
  target o = Some i -> WF (set_slot w m' i s) -> others_same w i m' -> statics m' = statics (wmem w) ->
  matches out (upd (abs w) i (option_map (text_of m') s)) (spec_exec (statics (wmem w)) (abs w) o) ->
  exec_post w o (set_slot w m' i s) out.
Proof.
  intros Ht HW' Ho Hs (Hnu & Href). split; auto.
  - intros Haf. rewrite abs_set_slot by exact Ho. exact (Href Haf).
  - intros j rj Hne Hj. assert (Hji : j <> i) by congruence.
    split; [cbn [set_slot pool]; rewrite nth_error_upd_ne by exact Hji; exact Hj|exact (Ho j rj Hji Hj)].
Qed.

Lemma on_result_post {w i w' out P} o fs :
  WF w -> on_result w i w' out P -> target o = Some i ->
  spec_exec (statics (wmem w)) (abs w) o = son (abs w) i fs ->
  (forall r m' r', handle_ok (heap (wmem w)) (statics (wmem w)) r -> P r m' r' out ->
                   matches out (text_of m' r') (fs (text_of (wmem w) r))) ->
  exec_post w o w' out.
Proof.
  intros HW H Ht E HP. unfold son in E. rewrite sget_abs in E.
  destruct (get_slot w i) as [r|] eqn:Hg; cbn [option_map] in E.
  - apply get_slot_nth in Hg. destruct (on_result_live H Hg) as (r' & -> & Hr' & HW' & Ho & S).
    apply (set_slot_post o i Ht HW' Ho (step_statics S)).
    destruct (HP r _ r' (wf_handle HW Hg) Hr') as (Hnu & Href). split; [exact Hnu|].
    intros Haf. rewrite E, <- (Href Haf). reflexivity.
  - destruct (on_result_dead H Hg) as (-> & ->). apply skip_post; assumption.
Qed.

Lemma clone_from_sound w i j w' out : WF w -> exec w (OCloneFrom i j) = (w', out) -> exec_post w (OCloneFrom i j) w' out.
Proof.
  intros HW He. pose proof (sget_abs w j) as Ej. destruct (get_slot w j) as [src|] eqn:Hj; cbn [option_map] in Ej.
  2:{ cbn [exec] in He. rewrite Hj in He. injection He as <- <-. apply skip_post; [exact HW|].
      cbn [spec_exec]. rewrite Ej. reflexivity. }
  destruct (Nat.eqb_spec i j) as [->|Hne].
  { cbn [exec] in He. rewrite Hj, Nat.eqb_refl in He. injection He as <- <-. apply skip_post; [exact HW|].
    cbn [spec_exec]. rewrite Ej, Nat.eqb_refl. reflexivity. }
  apply get_slot_nth in Hj.
  apply (on_result_post (OCloneFrom i j) (fun _ => (text_of (wmem w) src, OkUnit)) HW
           (op_clone_from w i j src w' out HW Hj Hne He) eq_refl).
  - cbn [spec_exec]. rewrite Ej, (proj2 (Nat.eqb_neq i j) Hne). reflexivity.
  - intros r m' r' _ (-> & -> & _ & Et). rewrite Et. apply matches_val; [discriminate|reflexivity].
Qed.

Lemma drop_sound w i w' out : WF w -> exec w (ODrop i) = (w', out) -> exec_post w (ODrop i) w' out.
Proof.
  intros HW He. cbn [exec] in He. pose proof (sget_abs w i) as E.
  destruct (get_slot w i) as [r|] eqn:Hg; cbn [option_map] in E.
  2:{ injection He as <- <-. apply skip_post; [exact HW|]. cbn [spec_exec]. rewrite E. reflexivity. }
  apply get_slot_nth in Hg.
  destruct (wp_val (drop_wp (val (fun _ m' => step_ok (wmem w) (refs (pool w)) r m' repr_new)) (wf_pre HW Hg) (fun _ S => S)))
    as (r' & m' & Hrun & S).
  rewrite Hrun in He. injection He as <- <-. destruct (wf_set_slot w i r m' repr_new None HW Hg S (or_intror (conj eq_refl repr_new_names))) as (HW' & Ho).
  apply (set_slot_post (ODrop i) i eq_refl HW' Ho (step_statics S)).
  apply matches_val; [discriminate|]. cbn [spec_exec option_map]. rewrite E. reflexivity.
Qed.
(* s = s + x: Add<&str> consumes self, so on a panic the moved value is dropped by unwinding and the slot is left empty:
   [x] is the grown handle, or nothing, and then the handle [r1] let go of names no buffer *)
Definition add_post (m : mem) (own : bufid -> N) (r : repr) (s : list N) (m' : mem) (x : option repr) : Prop :=
  exists r1, step_ok m own r m' r1
             /\ match x with
                | Some r' => r1 = r' /\ text_of m' r' = text_of m r ++ s
                | None => forall b, names r1 b = false
                end.
Lemma add_wp {m own r} s :
  Valid s -> pre m own r ->
  wp (p <- push_str r s ;; if snd p then Ret (Some (fst p)) else replace_inner (fst p) repr_new ;;; Ret None)
     (val (fun x m' => add_post m own r s m' x)) m.
Proof.
  intros Hv (HM & Hr & Hc). apply wp_seq. apply (push_str_wp s Hv m own r _ HM Hr Hc). intros m1 r1 ok HP.
  cbn [fst snd]. pose proof (pp_step HP) as S1. destruct ok.
  - apply wp_ret. exists r1. exact (conj S1 (conj eq_refl (pp_ok HP eq_refl))).
  - apply wp_seq. apply (drop_wp _ (step_pre S1)). intros m2 S2. apply wp_ret.
    exists repr_new. exact (conj (step_ok_trans S1 S2) repr_new_names).
Qed.
Lemma add_sound w i s w' out : WF w -> Valid s -> exec w (OAdd i s) = (w', out) -> exec_post w (OAdd i s) w' out.
Proof.
  intros HW Hv He. cbn [exec] in He. pose proof (sget_abs w i) as E.
  destruct (get_slot w i) as [r|] eqn:Hg; cbn [option_map] in E.
  2:{ injection He as <- <-. apply skip_post; [exact HW|]. cbn [spec_exec]. unfold son. rewrite E. reflexivity. }
  apply get_slot_nth in Hg.
  destruct (wp_val (add_wp s Hv (wf_pre HW Hg))) as (x & m' & Hrun & r1 & S & Hx).
  rewrite Hrun in He. pose proof (step_statics S) as Es. destruct x as [r'|]; injection He as <- <-.
  - destruct Hx as (-> & Et). destruct (wf_set_slot w i r m' r' _ HW Hg S (or_introl eq_refl)) as (HW' & Ho).
    apply (set_slot_post (OAdd i s) i eq_refl HW' Ho Es).
    apply matches_val; [discriminate|]. cbn [spec_exec option_map]. unfold son. rewrite E, Et. reflexivity.
  - destruct (wf_set_slot w i r m' r1 None HW Hg S (or_intror (conj eq_refl Hx))) as (HW' & Ho).
    apply (set_slot_post (OAdd i s) i eq_refl HW' Ho Es). split; discriminate.
Qed.

Lemma inplace_sound {w i f P fs o w' out} :
  WF w -> inplace_op f P fs -> exec_on w i f = (w', out) -> target o = Some i ->
  spec_exec (statics (wmem w)) (abs w) o = son (abs w) i fs -> exec_post w o w' out.
Proof.
  intros HW Hop He Ht Hsp.
  apply (on_result_post o fs HW (inplace_result HW Hop He) Ht Hsp).
  intros r m' r'. apply (io_matches Hop).
Qed.

Definition appended (w : world) (o : op) (w' : world) (out : outcome) : Prop :=
  exists s m' v, w' = append_slot w m' s /\ WF w' /\ all_same w m' /\ statics m' = statics (wmem w)
                 /\ built v m' s out /\ spec_exec (statics (wmem w)) (abs w) o = (abs w ++ [fst v], snd v).

Lemma ctor_op_appends {w o c P v w' out} :
  WF w -> ctor_op w c P v -> exec_ctor w c = (w', out) ->
  spec_exec (statics (wmem w)) (abs w) o = (abs w ++ [fst v], snd v) -> appended w o w' out.
Proof.
  intros HW Hop He Hsp. destruct (exec_ctor_sound HW Hop He) as (s & m' & -> & HP & HW' & Ha & Hs).
  pose proof (co_built Hop HP). exists s, m', v. auto 7.
Qed.

Lemma appended_post {w o w' out} : appended w o w' out -> exec_post w o w' out.
Proof.
  intros (s & m' & v & -> & HW' & Ha & Hs & ((Hnu & Href) & _) & Hsp). split; auto.
  - intros Haf. rewrite Hsp, abs_append_slot by exact Ha. rewrite <- (Href Haf). reflexivity.
  - intros j rj _ Hj. split; [apply nth_error_app_l; exact Hj|exact (Ha j rj Hj)].
Qed.

Lemma no_target_appends {w o w' out} :
  gen_ok -> WF w -> op_wf (statics (wmem w)) o -> target o = None -> exec w o = (w', out) -> appended w o w' out.
Proof.
  intros (Hlut & Htab) HW Hwf Ht He. destruct o; try discriminate Ht; cbn [op_wf] in Hwf.
  - apply (ctor_op_appends HW (inline_ctor_op w [] HW valid_nil (Nat.le_0_l _)) He). reflexivity.
  - apply (ctor_op_appends HW (from_str_op w m t HW Hwf) He). reflexivity.
  - destruct Hwf as (t & Hs). apply (ctor_op_appends HW (from_static_op w s t HW Hs) He).
    cbn [spec_exec]. rewrite Hs. reflexivity.
  - apply (ctor_op_appends HW (with_capacity_op w m n HW) He). reflexivity.
  - assert (Hc : char_ok (encode_cp c) = true) by (apply encode_cp_ok; exact Hwf).
    assert (Hl : (length (encode_cp c) <= 16)%nat) by (pose proof (char_ok_length _ Hc); lia).
    apply (ctor_op_appends HW (inline_ctor_op w _ HW (valid_char _ Hc) Hl) He). reflexivity.
  - set (t := if b then [116; 114; 117; 101] else [102; 97; 108; 115; 101]).
    assert (Hv : Valid t) by (apply valid_ascii; destruct b; repeat constructor; lia).
    assert (Hl : (length t <= 16)%nat) by (destruct b; cbn; lia).
    apply (ctor_op_appends HW (inline_ctor_op w t HW Hv Hl) He). reflexivity.
  - apply (ctor_op_appends HW (from_int_op w m t z _ _ HW Hlut (Htab t) Hwf) He). reflexivity.
  - pose proof (sget_abs w i) as E. cbn [exec] in He. destruct (get_slot w i) as [r|] eqn:Hg; cbn [option_map] in E.
    + apply (ctor_op_appends HW (clone_op w i r HW (proj1 (get_slot_nth w i r) Hg)) He). cbn [spec_exec]. rewrite E. reflexivity.
    + apply (ctor_op_appends HW (skip_ctor_op w HW) He). cbn [spec_exec]. rewrite E. reflexivity.
  - apply (ctor_op_appends HW (collect_chars_op w hint panic_at cs HW Hwf) He).
    cbn [spec_exec]. unfold acc_v. rewrite map_length. destruct (first_stop None panic_at 0 (length cs)) as [[n o]|]; reflexivity.
  - apply (ctor_op_appends HW (collect_strs_op w panic_at ss HW Hwf) He).
    cbn [spec_exec]. unfold acc_v. destruct (first_stop None panic_at 0 (length ss)) as [[n o]|]; reflexivity.
  - apply (ctor_op_appends HW (display_op w m err_at panic_at pieces HW Hwf) He).
    cbn [spec_exec]. unfold acc_v. destruct (first_stop err_at panic_at 0 (length pieces)) as [[n o]|]; reflexivity.
Qed.

Theorem exec_sound w o w' out :
  gen_ok -> WF w -> op_wf (statics (wmem w)) o -> exec w o = (w', out) -> exec_post w o w' out.
Proof.
  intros Hg HW Hwf He. destruct (target o) as [i0|] eqn:Ht; [|exact (appended_post (no_target_appends Hg HW Hwf Ht He))].
  clear Hg. destruct o; try discriminate Ht; injection Ht as <-; cbn [op_wf] in Hwf.
  - exact (clone_from_sound w i j w' out HW He).
  - exact (drop_sound w i w' out HW He).
  - apply (inplace_sound HW (push_str_op m _ (valid_char _ (encode_cp_ok _ Hwf))) He); reflexivity.
  - apply (inplace_sound HW (push_str_op m s Hwf) He); reflexivity.
  - exact (add_sound w i s w' out HW Hwf He).
  - apply (inplace_sound HW pop_op He); reflexivity.
  - apply (inplace_sound HW (remove_op m idx) He); reflexivity.
  - apply (inplace_sound HW (insert_str_op m idx _ (valid_char _ (encode_cp_ok _ Hwf))) He); reflexivity.
  - apply (inplace_sound HW (insert_str_op m idx s Hwf) He); reflexivity.
  - apply (inplace_sound HW (truncate_op m n) He); reflexivity.
  - apply (inplace_sound HW clear_op He); reflexivity.
  - apply (inplace_sound HW (retain_op m _) He); reflexivity.
  - apply (inplace_sound HW (reserve_op m n) He); reflexivity.
  - apply (inplace_sound HW (shrink_to_op m n) He); reflexivity.
  - apply (inplace_sound HW (extend_chars_op hint panic_at cs Hwf) He); [reflexivity|].
    cbn [spec_exec]. unfold pieces_fs. rewrite map_length. reflexivity.
  - apply (inplace_sound HW (write_pieces_op ss None panic_at Hwf) He); reflexivity.
  - apply (inplace_sound HW (write_pieces_op pieces err_at panic_at Hwf) He); reflexivity.
Qed.

Definition spec_execs (st : list (list N)) (p : sstate) (ops : list op) : sstate * list outcome :=
  fold_left (fun acc o => let '(p1, outs) := acc in let '(p2, out) := spec_exec st p1 o in (p2, outs ++ [out])) ops (p, []).

Lemma execs_snoc w ops o :
  execs w (ops ++ [o]) = let '(w1, outs) := execs w ops in let '(w2, out) := exec w1 o in (w2, outs ++ [out]).
Proof. unfold execs. rewrite fold_left_app. reflexivity. Qed.
Lemma spec_execs_snoc st p ops o :
  spec_execs st p (ops ++ [o]) =
  let '(p1, outs) := spec_execs st p ops in let '(p2, out) := spec_exec st p1 o in (p2, outs ++ [out]).
Proof. unfold spec_execs. rewrite fold_left_app. reflexivity. Qed.

(* every world reachable from a well-formed one: well-formed, statics untouched, no operation reached UB; and if no
   operation reported an allocation failure, the texts and every returned value are exactly Spec's.  The starting world is
   ANY well-formed world — in particular its [ext] (what the references held outside this world add to every count an
   atomic reads) is arbitrary: this is the statement for one thread among others, whatever the others do to the counts. *)
Theorem execs_sound_from w0 ops :
  gen_ok -> WF w0 -> Forall (op_wf (statics (wmem w0))) ops ->
  let '(w, outs) := execs w0 ops in
  WF w /\ statics (wmem w) = statics (wmem w0) /\ Forall (fun o => forall u, o <> UbOut u) outs
  /\ (forallb (fun o => negb (alloc_failure o)) outs = true ->
      (abs w, outs) = spec_execs (statics (wmem w0)) (abs w0) ops).
Proof.
  intros Hg HW0. induction ops as [|o ops IH] using rev_ind; intros Hwf.
  - cbn. split; [exact HW0|]. split; [reflexivity|]. split; [constructor|]. intros _. reflexivity.
  - apply Forall_app in Hwf as (Hwf & Hwo%Forall_inv). specialize (IH Hwf). rewrite execs_snoc, spec_execs_snoc.
    destruct (execs w0 ops) as [w1 outs1]. destruct IH as (HW1 & Hs1 & Hu1 & Hr1).
    destruct (exec w1 o) as [w2 out] eqn:He.
    rewrite <- Hs1 in Hwo. pose proof (exec_sound w1 o w2 out Hg HW1 Hwo He) as [P1 P2 P3 P4 P5].
    split; [exact P1|]. split; [congruence|]. split.
    + apply Forall_app. split; [exact Hu1|]. constructor; [exact P2|constructor].
    + intros Hall. rewrite forallb_app in Hall. apply andb_true_iff in Hall. destruct Hall as (Ha1 & Ha2).
      cbn [forallb] in Ha2. rewrite andb_true_r in Ha2. apply negb_true_iff in Ha2.
      specialize (Hr1 Ha1). rewrite <- Hr1. specialize (P4 Ha2). rewrite Hs1 in P4. rewrite <- P4. reflexivity.
Qed.

(* from the empty world of one thread among others *)
Theorem execs_sound_x st orc ex ops :
  gen_ok -> Forall Valid st -> Forall (op_wf st) ops ->
  let '(w, outs) := execs (world0x st orc ex) ops in
  WF w /\ statics (wmem w) = st /\ Forall (fun o => forall u, o <> UbOut u) outs
  /\ (forallb (fun o => negb (alloc_failure o)) outs = true ->
      (abs w, outs) = spec_execs st [] ops).
Proof.
  intros Hg Hst Hwf. exact (execs_sound_from (world0x st orc ex) ops Hg (wf_world0x st orc ex Hst) Hwf).
Qed.

(* the sequential case: nobody else *)
Theorem execs_sound st orc ops :
  gen_ok -> Forall Valid st -> Forall (op_wf st) ops ->
  let '(w, outs) := execs (world0 st orc) ops in
  WF w /\ statics (wmem w) = st /\ Forall (fun o => forall u, o <> UbOut u) outs
  /\ (forallb (fun o => negb (alloc_failure o)) outs = true ->
      (abs w, outs) = spec_execs st [] ops).
Proof. intros Hg Hst Hwf. exact (execs_sound_x st orc (fun _ => 0) ops Hg Hst Hwf). Qed.
