(* Legacy.v — the functions as they were before the repairs F1 - F4 (known_findings.json), each with the history on which
   the property is FALSE of it; the refutations themselves are evaluations of these histories in props/ (C05, C13, C18),
   next to the same history run by the repaired function.  (The same witnesses, as case files, are
   corpus/F1_reserve_shared.cases and corpus/F2_shrink_shared.cases and were replayed on the unrepaired crate.) *)
From Coq Require Import Lia ZArith.
From LS Require Import Base Cmd Impl Exec Proto.
From LSGen Require Import GenSrc.
Import ListNotations.
Open Scope N_scope.

(* Repr::reserve before e961856: uniqueness was probed by DEcrementing the count; on the shared path the buffer was
   read and copied after the reference had been given up, and a failed copy never restored the count *)
Definition legacy_reserve (r : repr) (additional : N) : cmd (repr * bool) :=
  match r with
  | Heap b l =>
      match checked_add l additional with
      | None => Ret (r, false)
      | Some needed =>
          v <- rmw b false Release ;;
          if v =? 1 then
            _ <- rmw b true Acquire ;;
            c <- hdr_cap b ;;
            if cond_reserve_enough c needed then Ret (r, true)
            else ok <- heap_realloc b (amortized_growth l additional) ;; Ret (r, ok)
          else
            t <- read (PHeap b) 0 l ;;
            on <- heap_with_additional t additional ;;
            match on with None => Ret (r, false) | Some r' => Ret (r', true) end
      end
  | _ => reserve r additional
  end.

Definition text24 : list N := repeat 97 24.
Definition m_empty : mem := mem0 [] (fun _ _ => false).

(* one owner makes a 24-byte heap string, clones it, asks the first handle for 2^60 more bytes (refused: above the
   56-bit capacity limit), then both handles are dropped *)
Definition scenario (rsv : repr -> N -> cmd (repr * bool)) : cmd bool :=
  o <- heap_new text24 ;;
  match o with
  | None => Ret false
  | Some r =>
      r2 <- make_shallow_clone r ;;
      p <- rsv r (2 ^ 60) ;;
      _ <- replace_inner (fst p) repr_new ;;
      _ <- replace_inner r2 repr_new ;;
      Ret (snd p)
  end.

(* C02 / C05 are false of the legacy code (C05_legacy_reserve_refuted): a reported failure was not "nothing happened" —
   the count was left one too low, and dropping the two handles touches freed memory.  The repaired function on the same
   history (C05_repaired_reserve_same_history): the failure is reported, both drops are fine, nothing stays allocated. *)

(* C04 refuted for the legacy code: it cannot be typed against the protocol — a thread holding ONE reference that reads
   any value other than 1 from its decrement goes on to read a buffer it no longer holds (another owner may free it) *)
Theorem legacy_reserve_not_protocol_safe : forall b l add g (Q : repr * bool -> ghost -> Prop),
  checked_add l add <> None -> g_refs g b = 1%nat -> g_excl g b = false -> g_bor g b = false ->
  ~ okc (legacy_reserve (Heap b l) add) g Q.
Proof.
  intros b l add g Q Hc Hr He Hb H. cbn [legacy_reserve] in H. destruct (checked_add l add) as [needed|]; [|congruence].
  cbn [bind rmw okc] in H. destruct H as (_ & _ & _ & H). specialize (H 2). cbn [N.eqb Pos.eqb bind read okc] in H.
  destruct H as (Hread & _). unfold can_read in Hread. cbn [g_refs g_excl g_free g_fen g_bor] in Hread. unfold setf in Hread.
  rewrite Nat.eqb_refl in Hread. rewrite Hr in Hread. destruct Hread as [H0|[H0|[(H0 & _)|H0]]]; [lia|discriminate|discriminate|congruence].
Qed.

(* Repr::shrink_to before 8892b12: the shared path sized the copy with the amortised growth rule *)
Definition legacy_shrink_shared (r : repr) (min_capacity : N) : cmd (repr * bool) :=
  match r with
  | Heap b l =>
      let new_capacity := expr_shrink_new_capacity l min_capacity in
      t <- read (PHeap b) 0 l ;;
      on <- heap_with_additional t (new_capacity - len t) ;;
      match on with
      | None => Ret (r, false)
      | Some r' => r'' <- replace_inner r r' ;; Ret (r'', true)
      end
  | _ => Ret (r, true)
  end.
Definition text40 : list N := repeat 97 40.
Definition shrink_scenario (shr : repr -> N -> cmd (repr * bool)) : cmd N :=
  o <- heap_with_capacity 100 ;;
  match o with
  | Some (Heap b _) =>
      _ <- write (PHeap b) 0 text40 ;;
      r <- heap_set_len b 40 ;;
      r2 <- make_shallow_clone r ;;
      p <- shr r 0 ;;
      capacity (fst p)
  | _ => Ret 0
  end.
(* C13 is false of the legacy code (C13_legacy_shrink_refuted): shrink_to_fit of a shared 40-byte string lands on
   60 (= 40 * 3 / 2), not on 40 *)

(* FromIterator<char> before 6540da4 (F3): the accumulator was a bare Repr (no Drop), so when the iterator — or a push —
   panicked, unwinding skipped the only statement that would have put the buffer under a LeanString: nothing released it *)
Definition legacy_collect_chars (hint : N) (panic_at : option nat) (cs : list N) : cmd (option repr * outcome) :=
  oc <- with_capacity hint ;;
  let r0 := match oc with Some r => r | None => repr_new end in
  p <- push_chars r0 cs 0 panic_at ;;
  let '(r, o) := p in
  match o with
  | OkUnit => Ret (Some r, OkUnit)
  | _ => Ret (None, o)                     (* unwinding: the raw Repr is forgotten, its buffer is not released *)
  end.
Definition chars20 : list N := repeat 97 20.
(* C18 / C03 are false of the legacy code (C18_legacy_collect_refuted): an iterator that panics at its 20th item (the text
   is on the heap by then) leaves a live buffer that no handle names; with the repaired function the panic is the same
   and nothing stays allocated *)

(* the generic arm of try_to_lean_string before 1a2b297 (F4): it wrote through fmt::Write for LeanString, whose write_str
   is the PANICKING push_str; a refused allocation therefore panicked out of the try_ form *)
Definition legacy_display (m : mode) (err_at panic_at : option nat) (ps : list (list N)) : cmd (option repr * outcome) :=
  p <- write_pieces repr_new ps 0 err_at panic_at ;; finish_acc p.
(* C05 is false of the legacy code (C05_legacy_display_refuted): with an allocator that refuses the first request,
   try_to_lean_string of a Display type writing 20 bytes panics with the ReserveError message instead of returning
   Err(Reserve) *)
Definition m_refuse_first : mem := mem0 [] (fun k _ => k =? 0).
