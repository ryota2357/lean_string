(* ThreadView.v — one thread among others: what its own operations read back.
   [Cmd.run] interprets the atomics of a command tree against a memory whose counts are THIS world's references; what
   the references held outside this world (by other threads) add to a count is supplied, read by read, by the oracle
   [ext] of the memory.  Compose.typed_values_ge_own shows that this is the only way other well-typed threads are visible
   to a thread: every count it reads is its own number of references plus a non-negative rest, nobody writes, moves or
   frees a buffer it holds a reference to (C04_no_interference_while_held), and fresh allocations are private.
   All the sequential theorems (exec_sound, the function specifications) are proved for an arbitrary [ext]; here the
   consequence for histories is stated on its own, with examples in which the rest is never zero. *)
From Coq Require Import Lia.
From LS Require Import Base Cmd Exec WF Spec Main.
Import ListNotations.
Open Scope N_scope.

(* whatever the other threads contribute to the counts this thread reads, in whatever order: from any well-formed world
   of the thread (its handles, among them handles to buffers shared with other threads), every history of its
   operations stays well-formed, reaches nothing undefined, and — unless an allocation failure is reported — reads back
   and returns exactly what Spec (String) does *)
Theorem thread_results_sequential w0 ops :
  gen_ok -> WF w0 -> Forall (op_wf (statics (wmem w0))) ops ->
  let '(w, outs) := execs w0 ops in
  WF w /\ Forall (fun o => forall u, o <> UbOut u) outs
  /\ (forallb (fun o => negb (alloc_failure o)) outs = true ->
      (abs w, outs) = spec_execs (statics (wmem w0)) (abs w0) ops).
Proof.
  intros Hg HW Hwf. pose proof (execs_sound_from w0 ops Hg HW Hwf) as H.
  destruct (execs w0 ops) as [w outs]. destruct H as (H1 & _ & H3 & H4). auto.
Qed.

(* the sequential theorems are the special case of a quiet world *)
Lemma world0_quiet st orc : quiet (wmem (world0 st orc)).
Proof. intros k. reflexivity. Qed.

(* the oracle is never consulted by anything but the value of an atomic read: a world and its memory differ from the
   quiet run only where a count was read.  In a world in which a foreign reference is ALWAYS visible, the uniqueness
   test never succeeds: every mutation of a heap string copies, and dropping the last local handle does not free *)
Definition busy : N -> N := fun _ => 1.

Definition t20 : list N := [97;98;99;100;101;102;103;104;105;106;107;108;109;110;111;112;113;114;115;116].
Definition view_ops : list op :=
  [OFromStr Plain t20; OClone 0%nat; OPush Plain 1%nat 33; ODrop 0%nat; OPush Plain 1%nat 63;
   OTruncate Plain 1%nat 3; OReserve Plain 1%nat 100; OShrinkTo Plain 1%nat 0; OClear 1%nat; OPush Plain 1%nat 65; ODrop 1%nat].

Example view_example_busy :
  (* same texts and results as String, with a foreign reference visible at every atomic read *)
  snd (execs (world0x [] (fun _ _ => false) busy) view_ops) = snd (spec_execs [] [] view_ops)
  /\ abs (fst (execs (world0x [] (fun _ _ => false) busy) view_ops)) = fst (spec_execs [] [] view_ops)
  (* and the allocator traffic differs from the quiet run: the second push copies although this world holds the only
     local handle (4 requests instead of 3) *)
  /\ nreq (wmem (fst (execs (world0x [] (fun _ _ => false) busy) view_ops))) = 4
  /\ nreq (wmem (fst (execs (world0 [] (fun _ _ => false)) view_ops))) = 3.
Proof. vm_compute. repeat split; reflexivity. Qed.

(* a rest that comes and goes (foreign clones and drops between this thread's events) *)
Definition flicker : N -> N := fun k => if N.even k then 0 else 2.
Example view_example_flicker :
  snd (execs (world0x [] (fun _ _ => false) flicker) view_ops) = snd (spec_execs [] [] view_ops)
  /\ abs (fst (execs (world0x [] (fun _ _ => false) flicker) view_ops)) = fst (spec_execs [] [] view_ops).
Proof. vm_compute. repeat split; reflexivity. Qed.

(* every stream of values the machine can deliver is an oracle:
   [runv] is [run] with the values of the atomic reads supplied from outside: the k-th event of the log, if it is an atomic
   read of the count, returns [av k] (what the protocol machine handed to the thread; clamped from below by the world's
   own count, which by Compose.typed_values_ge_own changes nothing: such a value is never below the thread's own number
   of references).  [runv_is_run]: for every such stream there is an oracle under which [run] performs exactly the same
   execution — so the quantification over all oracles in [thread_results_sequential] covers every value stream other
   threads can produce. *)
Definition with_ext (m : mem) (ex : N -> N) : mem :=
  {| heap := heap m; statics := statics m; orc := orc m; nreq := nreq m; log := log m; ext := ex |}.

Fixpoint runv {R} (c : cmd R) (av : N -> N) (m : mem) : out R * mem :=
  match c with
  | Rmw b add o k =>
      match nth_error (heap m) b with
      | None => (OUb UNoBuf, m)
      | Some x => if negb (live x) then (OUb UUseAfterFree, m) else
          let v := N.max (av (len (log m))) (count x) in
          let e := v - count x in
          runv (k v) av (set_buf m b {| live := rmw_live add (count x) e; asize := asize x;
                                        count := if add then count x + 1 else count x - 1;
                                        cap := cap x; data := data x |} (ERmw b add o v))
      end
  | Load b o k =>
      match nth_error (heap m) b with
      | None => (OUb UNoBuf, m)
      | Some x => if negb (live x) then (OUb UUseAfterFree, m) else
          let v := N.max (av (len (log m))) (count x) in runv (k v) av (logm m (ELoad b o v))
      end
  | Ret r => (OVal r, m)
  | Unreachable => (OUb UUnreachable, m)
  | Alloc n k =>
      if orc m (nreq m) n then
        runv (k None) av {| heap := heap m; statics := statics m; orc := orc m; nreq := nreq m + 1;
                            log := EAlloc n None :: log m; ext := ext m |}
      else
        let b := length (heap m) in
        runv (k (Some b)) av
            {| heap := heap m ++ [ {| live := true; asize := n; count := 0; cap := 0;
                                      data := repeat POISON (N.to_nat (n - HDR)) |} ];
               statics := statics m; orc := orc m; nreq := nreq m + 1; log := EAlloc n (Some b) :: log m; ext := ext m |}
  | Realloc b old new k =>
      match nth_error (heap m) b with
      | None => (OUb UNoBuf, m)
      | Some x =>
          if negb (live x) then (OUb UUseAfterFree, m) else
          if negb (old =? asize x) then (OUb UBadSize, m) else
          if orc m (nreq m) new then
            runv (k false) av {| heap := heap m; statics := statics m; orc := orc m; nreq := nreq m + 1;
                                 log := ERealloc b old new false :: log m; ext := ext m |}
          else
            let n' := N.to_nat (new - HDR) in
            let d' := firstn n' (data x) ++ repeat POISON (n' - length (data x)) in
            runv (k true) av {| heap := upd (heap m) b {| live := true; asize := new; count := count x; cap := cap x; data := d' |};
                                statics := statics m; orc := orc m; nreq := nreq m + 1;
                                log := ERealloc b old new true :: log m; ext := ext m |}
      end
  | Dealloc b n k =>
      match nth_error (heap m) b with
      | None => (OUb UNoBuf, m)
      | Some x =>
          if negb (live x) then (OUb UDoubleFree, m) else
          if negb (n =? asize x) then (OUb UBadSize, m) else
          runv k av (set_buf m b {| live := false; asize := asize x; count := count x; cap := cap x; data := data x |}
                             (EDealloc b n))
      end
  | HdrInit b c k =>
      match nth_error (heap m) b with
      | None => (OUb UNoBuf, m)
      | Some x => if negb (live x) then (OUb UUseAfterFree, m) else
          runv k av (set_buf m b {| live := true; asize := asize x; count := 1; cap := c; data := data x |} (EHdrInit b c))
      end
  | HdrCap b k =>
      match nth_error (heap m) b with
      | None => (OUb UNoBuf, m)
      | Some x => if negb (live x) then (OUb UUseAfterFree, m) else runv (k (cap x)) av m
      end
  | Fence o k => runv k av (logm m (EFence o))
  | Read (PHeap b) off n k =>
      match nth_error (heap m) b with
      | None => (OUb UNoBuf, m)
      | Some x => if negb (live x) then (OUb UUseAfterFree, m) else
          if negb (in_bounds off n (data x)) then (OUb UOob, m) else
          runv (k (slice (data x) (N.to_nat off) (N.to_nat n))) av (logm m (ERead (PHeap b) off n))
      end
  | Read (PStatic s) off n k =>
      match nth_error (statics m) s with
      | None => (OUb UNoBuf, m)
      | Some t => if negb (in_bounds off n t) then (OUb UOob, m) else
                  runv (k (slice t (N.to_nat off) (N.to_nat n))) av (logm m (ERead (PStatic s) off n))
      end
  | Write (PHeap b) off bs k =>
      match nth_error (heap m) b with
      | None => (OUb UNoBuf, m)
      | Some x => if negb (live x) then (OUb UUseAfterFree, m) else
          if negb (in_bounds off (len bs) (data x)) then (OUb UOob, m) else
          runv k av (set_buf m b {| live := true; asize := asize x; count := count x; cap := cap x;
                                    data := write_range (data x) (N.to_nat off) bs |} (EWrite (PHeap b) off (len bs)))
      end
  | Write (PStatic _) _ _ _ => (OUb UStaticWrite, m)
  | Move (PHeap b) src dst n k =>
      match nth_error (heap m) b with
      | None => (OUb UNoBuf, m)
      | Some x => if negb (live x) then (OUb UUseAfterFree, m) else
          if negb (in_bounds src n (data x) && in_bounds dst n (data x)) then (OUb UOob, m) else
          runv k av (set_buf m b {| live := true; asize := asize x; count := count x; cap := cap x;
                                    data := move_range (data x) (N.to_nat src) (N.to_nat dst) (N.to_nat n) |}
                             (EMove (PHeap b) src dst n))
      end
  | Move (PStatic _) _ _ _ _ => (OUb UStaticWrite, m)
  end.

(* what [runv] returns is what [run] returns under every oracle ex0 that coincides, from log position n on, with one
   suitable oracle ([run] never consults the oracle below the current log length, so the statement can be passed down
   to the continuation) *)
Definition agree {R} (n : N) (a : out R * mem) (b : (N -> N) -> out R * mem) : Prop :=
  exists ex, forall ex0, (forall j, n <= j -> ex0 j = ex j) -> (let (o, m') := a in (o, with_ext m' ex0)) = b ex0.

Lemma agree_stop {R} n (o : out R) m : agree n (o, m) (fun ex0 => (o, with_ext m ex0)).
Proof. exists (fun _ => 0). reflexivity. Qed.
(* both continue with [k] from [m1], whose log is one event longer *)
Lemma agree_next {R} (k : cmd R) av m m1 e :
  agree (len (log m1)) (runv k av m1) (fun ex0 => run k (with_ext m1 ex0)) -> log m1 = e :: log m ->
  agree (len (log m)) (runv k av m1) (fun ex0 => run k (with_ext m1 ex0)).
Proof.
  intros (ex & Hex) El. exists ex. intros ex0 H0. apply Hex. intros j Hj. apply H0.
  rewrite El, ListFacts.len_cons in Hj. lia.
Qed.
(* both sides find the buffer released ([u]), missing, or live *)
Lemma agree_live {R} n u h b (m : mem) (a : buf -> out R * mem) (f : (N -> N) -> buf -> out R * mem) :
  (forall x, agree n (a x) (fun ex0 => f ex0 x)) ->
  agree n (match nth_error h b with None => (OUb UNoBuf, m) | Some x => if negb (live x) then (OUb u, m) else a x end)
        (fun ex0 => match nth_error h b with
                    | None => (OUb UNoBuf, with_ext m ex0)
                    | Some x => if negb (live x) then (OUb u, with_ext m ex0) else f ex0 x
                    end).
Proof. intros H. destruct (nth_error h b) as [x|]; [destruct (negb (live x))|]; auto using agree_stop. Qed.
(* an atomic read of a count [c]: [runv] hands the continuation v = max (av i) c, [run] hands it c + ex0 i; the oracle
   that agrees is v - c at this event, and whatever suits the continuation afterwards *)
Lemma agree_read {R} (k : N -> cmd R) av m c (m1 : N -> N -> mem) :
  (forall e v, agree (len (log (m1 e v))) (runv (k v) av (m1 e v)) (fun ex0 => run (k v) (with_ext (m1 e v) ex0))) ->
  (forall e v, exists ev, log (m1 e v) = ev :: log m) ->
  agree (len (log m))
        (runv (k (N.max (av (len (log m))) c)) av (m1 (N.max (av (len (log m))) c - c) (N.max (av (len (log m))) c)))
        (fun ex0 => run (k (c + ex0 (len (log m)))) (with_ext (m1 (ex0 (len (log m))) (c + ex0 (len (log m)))) ex0)).
Proof.
  intros IH Hl. set (i := len (log m)). set (v := N.max (av i) c). destruct (IH (v - c) v) as (ex1 & Hex).
  exists (fun j => if j =? i then v - c else ex1 j). intros ex0 H0.
  rewrite (H0 i) by lia. rewrite N.eqb_refl. replace (c + (v - c)) with v by lia.
  apply Hex. intros j Hj. destruct (Hl (v - c) v) as (ev & El). rewrite El, ListFacts.len_cons in Hj.
  rewrite (H0 j) by lia. destruct (N.eqb_spec j i); [lia|reflexivity].
Qed.

(* every stream of values is realised by an oracle *)
Theorem runv_is_run {R} (c : cmd R) : forall av m, agree (len (log m)) (runv c av m) (fun ex0 => run c (with_ext m ex0)).
Proof.
  induction c as [r| |n k IH|b o n k IH|b n k IH|b c k IH|b k IH|b a o k IH|b o k IH|o k IH|p off n k IH|p off bs k IH|p s d n k IH];
    intros av m; cbn [run runv with_ext heap statics orc nreq].
  - apply agree_stop.
  - apply agree_stop.
  - destruct (orc m (nreq m) n); (eapply agree_next; [apply IH|reflexivity]).
  - apply agree_live. intros x. destruct (negb (o =? asize x)); [apply agree_stop|].
    destruct (orc m (nreq m) n); (eapply agree_next; [apply IH|reflexivity]).
  - apply agree_live. intros x. destruct (negb (n =? asize x)); [apply agree_stop|].
    eapply agree_next; [apply IH|reflexivity].
  - apply agree_live. intros x. eapply agree_next; [apply IH|reflexivity].
  - apply agree_live. intros x. apply IH.
  - apply agree_live. intros x.
    apply (agree_read k av m (count x)
             (fun e v => set_buf m b {| live := rmw_live a (count x) e; asize := asize x;
                                        count := if a then count x + 1 else count x - 1; cap := cap x; data := data x |}
                                 (ERmw b a o v))); intros e v; [apply IH|eexists; reflexivity].
  - apply agree_live. intros x.
    apply (agree_read k av m (count x) (fun _ v => logm m (ELoad b o v))); intros e v; [apply IH|eexists; reflexivity].
  - eapply agree_next; [apply IH|reflexivity].
  - destruct p as [b|sid].
    + apply agree_live. intros x. destruct (negb (in_bounds off n (data x))); [apply agree_stop|].
      eapply agree_next; [apply IH|reflexivity].
    + destruct (nth_error (statics m) sid) as [t|]; [|apply agree_stop].
      destruct (negb (in_bounds off n t)); [apply agree_stop|].
      eapply agree_next; [apply IH|reflexivity].
  - destruct p as [b|sid]; [|apply agree_stop].
    apply agree_live. intros x. destruct (negb (in_bounds off (len bs) (data x))); [apply agree_stop|].
    eapply agree_next; [apply IH|reflexivity].
  - destruct p as [b|sid]; [|apply agree_stop].
    apply agree_live. intros x. destruct (negb (in_bounds s n (data x) && in_bounds d n (data x))); [apply agree_stop|].
    eapply agree_next; [apply IH|reflexivity].
Qed.

(* the corollary in the form used: for every value stream there is an oracle under which [run] is that execution *)
Corollary every_value_stream_is_an_oracle {R} (c : cmd R) av m :
  exists ex, run c (with_ext m ex) = (let (o, m') := runv c av m in (o, with_ext m' ex)).
Proof. destruct (runv_is_run c av m) as (ex & H). exists ex. symmetry. apply H. reflexivity. Qed.
