(* ProtoOps.v — every modelled mutator of repr.rs respects the reference-count protocol (Proto.okc): starting from a
   handle the thread holds, with nothing owed, each of them only performs events whose protocol precondition holds, and
   ends holding its result handle with nothing owed.  The reader (as_bytes) is typed in Proto.v; Programs.v builds its
   typed thread programs from these typings. *)
From Coq Require Import Lia Arith List Bool NArith.
From LS Require Import Base Utf8 Cmd Impl Proto.
From LSGen Require Import GenSrc.
Import ListNotations.
Open Scope N_scope.

Definition post (g : ghost) (r : repr) : repr -> ghost -> Prop :=
  fun r' g' => settled g' /\ holds g' r' /\ cons g r g' r'.
Lemma post_refl {g r} : holds g r -> settled g -> post g r r g.
Proof. intros Hh Hs. exact (conj Hs (conj Hh (fun _ => eq_refl))). Qed.
Lemma mu_post_post {g r p g'} : mu_post g r p g' -> post g r (fst p) g'.
Proof. intros (S' & H' & _ & C'). exact (conj S' (conj H' C')). Qed.

(* same buffer (or both bufferless): the predicates on handles see nothing else of a handle *)
Definition sim (r r' : repr) : Prop :=
  match r, r' with
  | Heap b _, Heap b' _ => b = b'
  | Inline _, Inline _ => True
  | Static _ _, Static _ _ => True
  | _, _ => False
  end.
Lemma sim_refl r : sim r r. Proof. destruct r; cbn; auto. Qed.
Lemma sim_trans {a b c} : sim a b -> sim b c -> sim a c.
Proof. destruct a, b, c; cbn; intros; subst; auto; contradiction. Qed.
Lemma holds_excl_sim {g r r'} : sim r r' -> holds_excl g r -> holds_excl g r'.
Proof. destruct r, r'; cbn; intros; subst; auto; contradiction. Qed.
Lemma post_sim {g r0 r r' g'} : sim r r' -> post g r0 r g' -> post g r0 r' g'.
Proof. destruct r, r'; cbn [sim]; intros; subst; auto; contradiction. Qed.
Lemma holds_of_excl g r : holds_excl g r -> holds g r.
Proof. destruct r; cbn; auto. intros (H1 & H2 & _). auto. Qed.

(* in place: the ghost is untouched and the result is a handle on the same buffer *)
Lemma ok_write_at r off bs g (Q : repr -> ghost -> Prop) :
  holds_excl g r -> (forall r', sim r r' -> Q r' g) -> okc (write_at r off bs) g Q.
Proof.
  intros He HQ. destruct r as [d|b l|s l]; [apply HQ; exact I| |contradiction].
  apply okc_bind, ok_write; [apply He|]. apply HQ. reflexivity.
Qed.
Lemma ok_move_at r x y n g (Q : repr -> ghost -> Prop) :
  holds_excl g r -> (forall r', sim r r' -> Q r' g) -> okc (move_at r x y n) g Q.
Proof.
  intros He HQ. destruct r as [d|b l|s l]; [apply HQ; exact I| |contradiction].
  apply okc_bind. split; [apply He|]. apply HQ. reflexivity.
Qed.
Lemma ok_heap_set_len b n g (Q : repr -> ghost -> Prop) :
  (forall l, Q (Heap b l) g) -> okc (heap_set_len b n) g Q.
Proof. intros HQ. unfold heap_set_len. destruct (text_len_new n); [apply HQ|exact I]. Qed.
Lemma ok_set_len r n g (Q : repr -> ghost -> Prop) :
  (forall r', sim r r' -> Q r' g) -> okc (set_len r n) g Q.
Proof.
  intros HQ. destruct r as [d|b l|s l]; [apply HQ; exact I| |apply HQ; exact I].
  apply ok_heap_set_len. intros l'. apply HQ. reflexivity.
Qed.
Lemma ok_truncate_unchecked r n g (Q : repr -> ghost -> Prop) :
  (forall r', sim r r' -> Q r' g) -> okc (truncate_unchecked r n) g Q.
Proof. replace (truncate_unchecked r n) with (set_len r n) by (destruct r; reflexivity). apply ok_set_len. Qed.

Lemma ok_push_str r s g : holds g r -> settled g -> okc (push_str r s) g (fun p => post g r (fst p)).
Proof.
  intros Hh Hs. unfold push_str. destruct s as [|c0 s0]; [exact (post_refl Hh Hs)|].
  eapply okc_seq; [apply ok_reserve; assumption|]. intros [r1 [|]] g1 M1; [|exact (mu_post_post M1)].
  apply okc_bind, ok_write_at; [exact (mu_excl M1)|]. intros r2 S2.
  apply okc_bind, ok_set_len. intros r3 S3. exact (post_sim S3 (post_sim S2 (mu_post_post M1))).
Qed.

Lemma ok_pop r g : holds g r -> settled g -> okc (pop r) g (fun p => post g r (fst p)).
Proof.
  intros Hh Hs. unfold pop. apply okc_bind, ok_as_bytes; [exact Hh|]. intros [|c0 t0]; [exact (post_refl Hh Hs)|].
  apply okc_bind, ok_truncate_unchecked. intros r' S'. exact (post_sim S' (post_refl Hh Hs)).
Qed.
Lemma ok_truncate r n g : holds g r -> settled g -> okc (truncate r n) g (fun p => post g r (fst p)).
Proof.
  intros Hh Hs. unfold truncate. destruct (cond_truncate_noop n (repr_len r)); [exact (post_refl Hh Hs)|].
  apply okc_bind, ok_as_bytes; [exact Hh|]. intros t. destruct (negb (is_char_boundary t n)); [exact (post_refl Hh Hs)|].
  apply okc_bind, ok_truncate_unchecked. intros r' S'. exact (post_sim S' (post_refl Hh Hs)).
Qed.

Lemma ok_remove r idx g : holds g r -> settled g -> okc (remove r idx) g (fun p => post g r (fst p)).
Proof.
  intros Hh Hs. unfold remove. apply okc_bind, ok_as_bytes; [exact Hh|]. intros t.
  destruct (negb (is_char_boundary t idx)); [exact (post_refl Hh Hs)|].
  destruct (negb (idx <? repr_len r)); [exact (post_refl Hh Hs)|].
  eapply okc_seq; [apply ok_ensure_modifiable; assumption|]. intros [r1 [|]] g1 M1; [|exact (mu_post_post M1)].
  apply okc_bind, ok_move_at; [exact (mu_excl M1)|]. intros r2 S2.
  apply okc_bind, ok_set_len. intros r3 S3. exact (post_sim S3 (post_sim S2 (mu_post_post M1))).
Qed.

Lemma ok_insert_str r idx s g : holds g r -> settled g -> okc (insert_str r idx s) g (fun p => post g r (fst p)).
Proof.
  intros Hh Hs. unfold insert_str. apply okc_bind, ok_as_bytes; [exact Hh|]. intros t.
  destruct (negb (is_char_boundary t idx)); [exact (post_refl Hh Hs)|].
  destruct (checked_add (repr_len r) (len s)) as [nl|]; [|exact (post_refl Hh Hs)].
  eapply okc_seq; [apply ok_reserve; assumption|]. intros [r1 [|]] g1 M1; [|exact (mu_post_post M1)].
  pose proof (mu_excl M1) as E1.
  apply okc_bind, ok_move_at; [exact E1|]. intros r2 S2.
  apply okc_bind, ok_write_at; [exact (holds_excl_sim S2 E1)|]. intros r3 S3.
  apply okc_bind, ok_set_len. intros r4 S4.
  exact (post_sim S4 (post_sim S3 (post_sim S2 (mu_post_post M1)))).
Qed.

Lemma ok_retain_loop chars : forall r k pred dst g (Q : repr * N * bool -> ghost -> Prop),
  holds_excl g r -> (forall r' d c, sim r r' -> Q (r', d, c) g) -> okc (retain_loop r chars k pred dst) g Q.
Proof.
  induction chars as [|ch rest IH]; intros r k pred dst g Q He HQ; cbn [retain_loop]; [apply HQ, sim_refl|].
  destruct (pred k) as [[|]|]; [|apply IH; assumption|apply HQ, sim_refl].
  apply okc_bind, ok_write_at; [exact He|]. intros r' S'. apply IH; [exact (holds_excl_sim S' He)|].
  intros r'' d c S''. apply HQ. exact (sim_trans S' S'').
Qed.
Lemma ok_retain r pred g : holds g r -> settled g -> okc (retain r pred) g (fun p => post g r (fst p)).
Proof.
  intros Hh Hs. unfold retain.
  eapply okc_seq; [apply ok_ensure_modifiable; assumption|]. intros [r1 [|]] g1 M1; [|exact (mu_post_post M1)].
  apply okc_bind, ok_as_bytes; [exact (mu_holds M1)|]. intros t.
  apply okc_bind, ok_retain_loop; [exact (mu_excl M1)|]. intros r2 d c S2.
  apply okc_bind, ok_set_len. intros r3 S3. exact (post_sim S3 (post_sim S2 (mu_post_post M1))).
Qed.

Lemma ok_drop_inline r d g : holds g r -> settled g -> okc (replace_inner r (Inline d)) g (post g r).
Proof.
  intros Hh Hs. apply ok_release; [exact Hh|exact Hs|]. intros g' S' R' _.
  split; [exact S'|]. split; [exact I|]. intros x. rewrite R'. cbn [nm]. lia.
Qed.
Lemma ok_drop r g : holds g r -> settled g ->
  okc (replace_inner r repr_new) g (fun r' g' => settled g' /\ holds g' r' /\ cons g r g' r').
Proof. exact (ok_drop_inline r inline_empty g). Qed.
Lemma ok_clear r g : holds g r -> settled g -> okc (clear r) g (post g r).
Proof.
  intros Hh Hs. unfold clear. apply okc_bind.
  assert (Hu : forall g', holds g' r -> settled g' -> okc (set_len r 0) g' (post g' r)).
  { intros g' Hh' Hs'. apply ok_set_len. intros r' S'. exact (post_sim S' (post_refl Hh' Hs')). }
  destruct r as [d|b l|s l]; [exact (Hu g Hh Hs)| |exact (Hu g Hh Hs)].
  apply ok_is_unique; [apply Hh|]. intros [|]; [exact (Hu (gload g b true) Hh Hs)|exact (ok_drop (Heap b l) (gload g b false) Hh Hs)].
Qed.

Lemma ok_heap_with_capacity c : fresh_heap (heap_with_capacity c).
Proof.
  intros g Q Hn Hs. unfold heap_with_capacity. destruct (text_len_new 0) as [l|]; [|exact Hn].
  destruct (capacity_new c) as [c'|]; [|exact Hn]. apply okc_bind, ok_allocate_ptr; [exact Hn|].
  intros b H1 H2 H3. apply Hs; assumption.
Qed.
Lemma ok_heap_with_exact_capacity t c : fresh_heap (heap_with_exact_capacity t c).
Proof.
  intros g Q Hn Hs. unfold heap_with_exact_capacity. apply okc_bind, ok_heap_with_capacity; [exact Hn|].
  intros b l H1 H2 H3. apply okc_bind, ok_write; [apply setf_eq|].
  apply okc_bind, ok_heap_set_len. intros l'. apply Hs; assumption.
Qed.

Lemma ok_shrink_to r m g : holds g r -> settled g -> okc (shrink_to r m) g (fun p => post g r (fst p)).
Proof.
  intros Hh Hs. destruct r as [d|b l|s l]; cbn [shrink_to]; [exact (post_refl Hh Hs)| |exact (post_refl Hh Hs)].
  apply okc_bind, ok_hdr_cap; [left; apply Hh|]. intros oc. destruct (cond_shrink_inline _).
  { apply okc_bind, (ok_as_bytes (Heap b l)); [exact Hh|]. intros t. apply okc_bind. exact (ok_drop_inline (Heap b l) _ g Hh Hs). }
  destruct (cond_shrink_noop _ _); [exact (post_refl Hh Hs)|].
  apply okc_bind, ok_is_unique; [apply Hh|]. intros [|].
  - apply okc_bind, ok_heap_realloc; [apply (holds_unique g b l Hh)|]. intros ok. exact (post_refl Hh Hs).
  - apply okc_bind, (ok_as_bytes (Heap b l)); [exact Hh|]. intros t.
    eapply okc_mono; [apply (ok_replace_by_fresh (Heap b l)); [apply ok_heap_with_exact_capacity|exact Hh|exact Hs]|].
    intros p g' _. exact mu_post_post.
Qed.
